(** General facts about lists; then facts about the definitions of Base.v: the wrapping predecessor and
    successor, [memN], [eqlN], [sortN] and [mergeN], [sortedb], [run]. *)
From Bbolt Require Import Base.
From Coq Require Import Sorting.Permutation Sorting.Sorted Sorting.Mergesort.

Lemma nth_error_lt {A} (l : list A) i x : nth_error l i = Some x -> (i < length l)%nat.
Proof. intros H. apply nth_error_Some. congruence. Qed.

Lemma nth_error_split_fs {A} (l : list A) i x : nth_error l i = Some x ->
  l = firstn i l ++ x :: skipn (S i) l.
Proof.
  revert i; induction l as [|a l IH]; intros [|i] H; simpl in *; try discriminate.
  - inversion H; reflexivity.
  - f_equal. apply IH. exact H.
Qed.

Lemma nth_error_ex {A} (l : list A) i : (i < length l)%nat -> exists x, nth_error l i = Some x.
Proof.
  intros L. destruct (nth_error l i) as [x|] eqn:E; [exists x; reflexivity|]. apply nth_error_None in E. lia.
Qed.

Lemma nth_error_last {A} (l : list A) : l <> [] -> exists i x, length l = S i /\ nth_error l i = Some x.
Proof.
  destruct l as [|y l]; [congruence|]. intros _. exists (length l).
  destruct (nth_error_ex (y :: l) (length l) (Nat.lt_succ_diag_r _)) as (x & E). exists x. split; [reflexivity|exact E].
Qed.

Lemma skipn_nth_cons {A} (l : list A) n x : nth_error l n = Some x -> skipn n l = x :: skipn (S n) l.
Proof.
  revert l. induction n as [|n IH]; intros [|y l] H; cbn in H; try discriminate.
  - injection H as ->. reflexivity.
  - apply (IH l H).
Qed.

Lemma firstn_S_nth {A} (l : list A) n x : nth_error l n = Some x -> firstn (S n) l = firstn n l ++ [x].
Proof.
  revert l. induction n as [|n IH]; intros [|y l] H; cbn in H; try discriminate.
  - injection H as ->. reflexivity.
  - cbn [firstn app]. f_equal. apply (IH l H).
Qed.

Lemma In_firstn_nth {A} (l : list A) n x : In x (firstn n l) -> exists i, (i < n)%nat /\ nth_error l i = Some x.
Proof.
  revert l. induction n as [|n IH]; intros [|y l] H; cbn in H; try contradiction.
  destruct H as [->|H]; [exists 0%nat; split; [lia|reflexivity]|].
  destruct (IH l H) as (i & L & Hn). exists (S i). split; [lia|exact Hn].
Qed.

Lemma In_skipn_nth {A} (l : list A) n x : In x (skipn n l) -> exists i, (n <= i)%nat /\ nth_error l i = Some x.
Proof.
  revert l. induction n as [|n IH]; intros l H.
  - cbn in H. apply In_nth_error in H as (i & Hn). exists i. split; [lia|exact Hn].
  - destruct l as [|y l]; [contradiction|]. cbn [skipn] in H.
    destruct (IH l H) as (i & L & Hn). exists (S i). split; [lia|exact Hn].
Qed.

Lemma nth_error_skipn' {A} (l : list A) : forall n m, nth_error (skipn n l) m = nth_error l (n + m).
Proof. induction l as [|a l IH]; intros [|n] m; simpl; auto. destruct m; reflexivity. Qed.

Lemma in_snoc {A} (x a : A) l : In x (l ++ [a]) <-> In x l \/ a = x.
Proof. rewrite in_app_iff. split; [intros [H|[H|[]]] | intros [H|H]]; simpl; auto. Qed.

Lemma find_app {A} (f : A -> bool) l1 l2 x : find f l1 = Some x -> find f (l1 ++ l2) = Some x.
Proof. induction l1 as [|y l1 IH]; simpl; [discriminate|]. destruct (f y); auto. Qed.

Lemma find_app_none {A} (f : A -> bool) l1 l2 : find f l1 = None -> find f (l1 ++ l2) = find f l2.
Proof. induction l1 as [|y l1 IH]; simpl; [reflexivity|]. destruct (f y); [discriminate|auto]. Qed.

Lemma map_fst_pair {A B} (b : B) (l : list A) : map fst (map (fun x => (x, b)) l) = l.
Proof. rewrite map_map. apply map_id. Qed.

Lemma negb_existsb {A} (f : A -> bool) l : negb (existsb f l) = true <-> forall x, In x l -> f x = false.
Proof.
  rewrite negb_true_iff, <- not_true_iff_false, existsb_exists. split.
  - intros H x Hx. apply not_true_iff_false. intros E. apply H. eauto.
  - intros H [x [Hx E]]. rewrite (H x Hx) in E. discriminate.
Qed.

Lemma filter_id {A} (f : A -> bool) l : (forall x, In x l -> f x = true) -> filter f l = l.
Proof.
  induction l as [|x l IH]; intros H; [reflexivity|]. cbn [filter].
  rewrite (H x (or_introl eq_refl)). f_equal. apply IH. intros y Hy. apply H. now right.
Qed.

Lemma filter_none {A} (f : A -> bool) l : (forall x, In x l -> f x = false) -> filter f l = [].
Proof.
  induction l as [|x l IH]; intros H; [reflexivity|]. cbn [filter].
  rewrite (H x (or_introl eq_refl)). apply IH. intros y Hy. apply H. now right.
Qed.

Lemma in_filter_sub {A} (f : A -> bool) l x : In x (filter f l) -> In x l.
Proof. intros H. apply filter_In in H. tauto. Qed.

Lemma filter_flat_map {A} (f : A -> bool) (l : list A) :
  filter f l = flat_map (fun x => if f x then [x] else []) l.
Proof. induction l as [|x l IH]; [reflexivity|]. cbn [filter flat_map]. rewrite IH. now destruct (f x). Qed.

Lemma filter_partition_perm {A} (f : A -> bool) (l : list A) :
  Permutation l (filter (fun x => negb (f x)) l ++ filter f l).
Proof.
  induction l as [|x l IH]; cbn [filter]; [constructor|].
  destruct (f x); cbn [negb app].
  - apply Permutation_cons_app. exact IH.
  - constructor. exact IH.
Qed.

Lemma nth_error_mid {A} (a : list A) x b : nth_error (a ++ x :: b) (length a) = Some x.
Proof. induction a; cbn; auto. Qed.

Lemma nth_error_decomp2 {A} (l : list A) i x y : nth_error l i = Some x -> nth_error l (S i) = Some y ->
  exists a b, l = a ++ x :: y :: b /\ length a = i.
Proof.
  intros H1 H2. destruct (nth_error_split _ _ H1) as (a & b & -> & <-). exists a.
  rewrite <- Nat.add_1_r, nth_error_app2, Nat.add_comm, Nat.add_sub in H2 by lia.
  destruct b as [|y' b]; [discriminate|]. injection H2 as ->. eauto.
Qed.

Lemma nth_error_combine {A B} : forall (a : list A) (b : list B) i,
  nth_error (combine a b) i = match nth_error a i, nth_error b i with Some x, Some y => Some (x, y) | _, _ => None end.
Proof.
  induction a as [|x0 a IH]; intros [|y0 b] [|i]; cbn; auto. destruct (nth_error a i); reflexivity.
Qed.

Lemma map_fst_combine {A B} : forall (a : list A) (b : list B), length a = length b -> map fst (combine a b) = a.
Proof. induction a as [|x a IH]; intros [|y b] L; cbn in *; try discriminate; [reflexivity|]. now rewrite IH by lia. Qed.

Lemma in_combine_map {A B C} (f : B -> C) (ks : list A) (l : list B) c :
  In c (combine ks (map f l)) -> exists x, In x l /\ snd c = f x.
Proof. destruct c as [k y]. intros H. apply in_combine_r in H. apply in_map_iff in H. destruct H as (x & <- & Hx). eauto. Qed.

Lemma flat_map_combine_snd {A B C} (f : B -> list C) : forall (ks : list A) (l : list B), length ks = length l ->
  flat_map (fun c => f (snd c)) (combine ks l) = flat_map f l.
Proof. induction ks as [|k ks IH]; intros [|y l] L; cbn in *; try discriminate; [reflexivity|]. now rewrite IH by lia. Qed.

Lemma in_app3 {A} (a b c : list A) x : In x (a ++ b ++ c) <-> In x a \/ In x b \/ In x c.
Proof. rewrite !in_app_iff. reflexivity. Qed.

Lemma rev_eq_nil {A} (l : list A) : rev l = [] -> l = [].
Proof. intros H. rewrite <- (rev_involutive l), H. reflexivity. Qed.

Lemma app_nil_iff {A} (a b : list A) (P Q : Prop) : (a = [] <-> P) -> (b = [] <-> Q) -> (a ++ b = [] <-> P /\ Q).
Proof.
  intros HP HQ. split.
  - intros H. apply app_eq_nil in H. split; [apply HP, H | apply HQ, H].
  - intros [Ha Hb]. apply HP in Ha. apply HQ in Hb. rewrite Ha, Hb. reflexivity.
Qed.

Lemma singleton_if_nil {A} (b : bool) (c : A) : (if b then [c] else []) = [] <-> b = false.
Proof. destruct b; split; congruence. Qed.

Lemma flat_map_if_nil {A B} (c : A -> bool) (e : A -> B) l :
  flat_map (fun i => if c i then [e i] else []) l = [] <-> forall i, In i l -> c i = false.
Proof.
  induction l as [|i l IH]; cbn [flat_map]; [split; [intros _ i [] | reflexivity]|].
  etransitivity; [exact (app_nil_iff _ _ _ _ (singleton_if_nil (c i) (e i)) IH)|]. split.
  - intros [H1 H2] j [<- | Hj]; [exact H1 | exact (H2 j Hj)].
  - intros H. split; [apply H; left; reflexivity | intros j Hj; apply H; right; exact Hj].
Qed.

Lemma flat_map_mid {A B} (f : A -> list B) a x b : flat_map f (a ++ x :: b) = flat_map f a ++ f x ++ flat_map f b.
Proof. now rewrite flat_map_app. Qed.

Lemma flat_map_Forall_ext {A B} (f g : A -> list B) l : Forall (fun x => f x = g x) l -> flat_map f l = flat_map g l.
Proof. induction 1 as [|x l E _ IH]; cbn; [auto | now rewrite E, IH]. Qed.

Lemma concat_map_nil {A B} (l : list A) : concat (map (fun _ => @nil B) l) = [].
Proof. induction l; cbn; auto. Qed.

Lemma existsb_false {A} (f : A -> bool) l : (forall x, In x l -> f x = false) -> existsb f l = false.
Proof. induction l as [|y l IH]; intros H; cbn; [reflexivity|]. rewrite (H y (or_introl eq_refl)), IH; auto. intros; apply H; now right. Qed.

Lemma fold_left_inv {A B} (P : A -> Prop) (f : A -> B -> A) (l : list B) :
  (forall a i, In i l -> P a -> P (f a i)) -> forall a, P a -> P (fold_left f l a).
Proof.
  induction l as [|i l IH]; intros Hf a Ha; [exact Ha|].
  cbn [fold_left]. apply IH; [intros b j Hj; apply Hf; right; exact Hj|]. apply Hf; [left; reflexivity | exact Ha].
Qed.

Lemma Forall_nth_error {A} (P : A -> Prop) l i x : Forall P l -> nth_error l i = Some x -> P x.
Proof. intros F H. rewrite Forall_forall in F. eapply F, nth_error_In, H. Qed.

Lemma Forall_mid {A} (P : A -> Prop) a x b : Forall P (a ++ x :: b) <-> Forall P a /\ P x /\ Forall P b.
Proof. rewrite Forall_app, Forall_cons_iff. tauto. Qed.

Lemma Forall2_refl' {A} (R : A -> A -> Prop) l : (forall a, R a a) -> Forall2 R l l.
Proof. intros H. induction l; constructor; auto. Qed.

Lemma Forall2_trans' {A} (P Q R : A -> A -> Prop) : (forall a b c, P a b -> Q b c -> R a c) ->
  forall l1 l2 l3, Forall2 P l1 l2 -> Forall2 Q l2 l3 -> Forall2 R l1 l3.
Proof.
  intros H l1 l2 l3 F1. revert l3. induction F1; intros l3 F2; inversion F2; subst; constructor; eauto.
Qed.

Lemma Forall2_length' {A B} (R : A -> B -> Prop) l1 l2 : Forall2 R l1 l2 -> length l1 = length l2.
Proof. induction 1; cbn; auto. Qed.

Lemma NoDup_app_iff {A} (a b : list A) :
  NoDup (a ++ b) <-> NoDup a /\ NoDup b /\ (forall x, In x a -> ~ In x b).
Proof.
  induction a as [|x a IH]; cbn [app].
  - split; [intros H; split; [constructor | split; [exact H | intros x []]] | intros (_ & H & _); exact H].
  - rewrite !NoDup_cons_iff, IH, in_app_iff. cbn [In]. intuition (subst; eauto).
Qed.

Lemma NoDup_app_disjoint {A} (a b : list A) x : NoDup (a ++ b) -> In x a -> In x b -> False.
Proof. intros Hn. exact (proj2 (proj2 (proj1 (NoDup_app_iff a b) Hn)) x). Qed.

Lemma perm_nodup_parts {A} (l f k : list A) : Permutation l (f ++ k) -> NoDup l ->
  NoDup f /\ NoDup k /\ (forall x, In x f -> In x l) /\ (forall x, In x k <-> In x l /\ ~ In x f).
Proof.
  intros HP ND. destruct (proj1 (NoDup_app_iff f k) (Permutation_NoDup HP ND)) as (Nf & Nk & D).
  assert (M : forall x, In x l <-> In x f \/ In x k).
  { intros x. rewrite <- in_app_iff. split; apply Permutation_in; [|symmetry]; exact HP. }
  repeat split; auto; try (intros; apply M; tauto).
  - intros Hf. now apply (D x).
  - intros [Hl Hn]. apply M in Hl. tauto.
Qed.

Lemma bind_ok {A B} (m : res A) (f : A -> res B) r : (let? x := m in f x) = Ok r -> exists x, m = Ok x /\ f x = Ok r.
Proof. destruct m; [eauto | discriminate | discriminate]. Qed.

Lemma remove_run_segment {A} (a r b : list A) (i n : nat) :
  length r = n -> (1 <= n)%nat -> i = (length a + n - 1)%nat ->
  firstn (S i - n) (a ++ r ++ b) ++ skipn (S i) (a ++ r ++ b) = a ++ b.
Proof.
  intros Hr Hn Hi.
  replace (S i - n)%nat with (length a) by lia.
  replace (S i) with (length (a ++ r)) by (rewrite app_length; lia).
  rewrite firstn_app, firstn_all, Nat.sub_diag, firstn_O, app_nil_r.
  rewrite app_assoc, skipn_app, skipn_all, Nat.sub_diag. reflexivity.
Qed.

Lemma wsub1_pos t : t <> 0 -> wsub1 t = t - 1.
Proof. unfold wsub1. now destruct (N.eqb_spec t 0). Qed.

Lemma wadd1_lt t : t < MAXU64 -> wadd1 t = t + 1.
Proof. unfold wadd1. destruct (N.eqb_spec t MAXU64); [lia | reflexivity]. Qed.

Lemma memN_in x l : memN x l = true <-> In x l.
Proof.
  unfold memN. rewrite existsb_exists. split.
  - intros [y [Hy E]]. apply N.eqb_eq in E. subst. exact Hy.
  - intros H. exists x. split; [exact H | apply N.eqb_refl].
Qed.

Lemma memN_false x l : memN x l = false <-> ~ In x l.
Proof. rewrite <- memN_in. destruct (memN x l); split; congruence. Qed.

Lemma negb_memN x l : negb (memN x l) = true <-> ~ In x l.
Proof. rewrite negb_true_iff. apply memN_false. Qed.

Lemma forallb_memN l fb : forallb (fun x => memN x fb) l = true <-> forall x, In x l -> In x fb.
Proof. rewrite forallb_forall. now setoid_rewrite memN_in. Qed.

Lemma eqlN_true_iff a b : eqlN a b = true <-> a = b.
Proof.
  revert b; induction a as [|x a IH]; intros [|y b]; cbn [eqlN]; try (split; discriminate); [now split|].
  rewrite andb_true_iff, N.eqb_eq, IH. split; [intros [-> ->]; reflexivity | intros [= -> ->]; now split].
Qed.

Lemma eqlN_eq a b : eqlN a b = true -> a = b.
Proof. apply eqlN_true_iff. Qed.

Lemma eqlN_refl a : eqlN a a = true.
Proof. now apply eqlN_true_iff. Qed.

Lemma sortN_perm l : Permutation l (sortN l).
Proof. apply NSort.Permuted_sort. Qed.

Lemma mergeN_perm a b : Permutation (a ++ b) (mergeN a b).
Proof. apply NSort.Permuted_merge. Qed.

Lemma sortN_length l : length (sortN l) = length l.
Proof. symmetry. apply Permutation_length, sortN_perm. Qed.

Lemma mergeN_length a b : length (mergeN a b) = (length a + length b)%nat.
Proof. rewrite <- (Permutation_length (mergeN_perm a b)). apply app_length. Qed.

Lemma sortN_in x l : In x (sortN l) <-> In x l.
Proof. split; apply Permutation_in; [symmetry|]; apply sortN_perm. Qed.

Lemma mergeN_in x a b : In x (mergeN a b) <-> In x a \/ In x b.
Proof.
  rewrite <- in_app_iff. split; apply Permutation_in; [symmetry|]; apply mergeN_perm.
Qed.

Lemma sortN_sorted l : Sorted (fun x y => is_true (x <=? y)) (sortN l).
Proof. apply NSort.Sorted_sort. Qed.

Lemma sortN_sorted_le l : Sorted N.le (sortN l).
Proof.
  pose proof (sortN_sorted l) as H. induction H as [|a l' Hs IH Hh]; constructor; [exact IH|].
  destruct Hh; constructor. now apply N.leb_le.
Qed.

Lemma sortN_ssorted l : StronglySorted N.le (sortN l).
Proof. apply Sorted_StronglySorted; [exact N.le_trans | apply sortN_sorted_le]. Qed.

(** A sorted list is determined by its elements, so [sortN] is a canonical form for multisets. *)
Lemma ssorted_perm_eq l1 : forall l2,
  StronglySorted N.le l1 -> StronglySorted N.le l2 -> Permutation l1 l2 -> l1 = l2.
Proof.
  induction l1 as [|x l1 IH]; intros l2 S1 S2 P.
  - apply Permutation_nil in P. now subst.
  - destruct l2 as [|y l2]; [apply Permutation_sym, Permutation_nil in P; discriminate|].
    inversion S1 as [|? ? S1' F1]; inversion S2 as [|? ? S2' F2]; subst.
    assert (x = y).
    { assert (Hx : In x (y :: l2)) by (eapply Permutation_in; [exact P | now left]).
      assert (Hy : In y (x :: l1)) by (eapply Permutation_in; [symmetry; exact P | now left]).
      destruct Hx as [->|Hx]; [reflexivity|]. destruct Hy as [->|Hy]; [reflexivity|].
      rewrite Forall_forall in F1, F2. specialize (F1 _ Hy). specialize (F2 _ Hx). lia. }
    subst y. f_equal. apply IH; auto. eapply Permutation_cons_inv; eauto.
Qed.

Lemma sortN_eq_iff a b : sortN a = sortN b <-> Permutation a b.
Proof.
  split; intros H.
  - rewrite (sortN_perm a), H. symmetry. apply sortN_perm.
  - apply ssorted_perm_eq; try apply sortN_ssorted. now rewrite <- !sortN_perm.
Qed.

Lemma sortedb_cons x l :
  sortedb (x :: l) = true <-> (forall y, In y l -> x < y) /\ sortedb l = true.
Proof.
  revert x. induction l as [|y l IH]; intros x.
  - split; [intros _; split; [intros y []|reflexivity] | reflexivity].
  - change (sortedb (x :: y :: l)) with ((x <? y) && sortedb (y :: l)).
    rewrite andb_true_iff, N.ltb_lt. split.
    + intros [Hxy Hs]. split; [|exact Hs]. apply IH in Hs. destruct Hs as [Hy _].
      intros z [<-|Hz]; [exact Hxy|]. specialize (Hy z Hz). lia.
    + intros [Hall Hs]. split; [|exact Hs]. apply Hall. now left.
Qed.

Lemma sortedb_app a b :
  sortedb (a ++ b) = true <->
  sortedb a = true /\ sortedb b = true /\ (forall x y, In x a -> In y b -> x < y).
Proof.
  induction a as [|x a IH]; cbn [app].
  - split; [intros H; repeat split; [exact H | intros x y []] | tauto].
  - rewrite !sortedb_cons, IH. setoid_rewrite in_app_iff. cbn [In]. split.
    + intros [Hx [Ha [Hb Hab]]]. repeat split; auto. intros u v [<-|Hu] Hv; auto.
    + intros [[Hx Ha] [Hb Hab]]. repeat split; auto. intros y [Hy|Hy]; auto.
Qed.

Lemma run_nat_in x p n : In x (run_nat p n) <-> p <= x < p + N.of_nat n.
Proof.
  revert p. induction n as [|n IH]; intros p; simpl run_nat.
  - simpl. lia.
  - simpl In. rewrite IH. lia.
Qed.

Lemma run_in x p n : In x (run p n) <-> p <= x < p + n.
Proof. unfold run. rewrite run_nat_in, N2Nat.id. reflexivity. Qed.

Lemma run_nat_length p n : length (run_nat p n) = n.
Proof. revert p; induction n as [|n IH]; intros p; simpl; [reflexivity | now rewrite IH]. Qed.

Lemma run_length p n : length (run p n) = N.to_nat n.
Proof. apply run_nat_length. Qed.

Lemma run0_in i n : In i (run 0 n) <-> i < n.
Proof. rewrite run_in. split; [intros [_ H]; exact H | intros H; split; [apply N.le_0_l | exact H]]. Qed.

Lemma run_nat_add h n : forall p, map (N.add h) (run_nat p n) = run_nat (h + p) n.
Proof. induction n as [|n IH]; intros p; [reflexivity|]. cbn [run_nat map]. rewrite IH, N.add_assoc. reflexivity. Qed.

Lemma run_nat_snoc p m : run_nat p (S m) = run_nat p m ++ [p + N.of_nat m].
Proof.
  revert p. induction m as [|m IH]; intros p.
  - cbn. now rewrite N.add_0_r.
  - change (run_nat p (S (S m))) with (p :: run_nat (p + 1) (S m)).
    rewrite IH. cbn [run_nat app]. do 3 f_equal. lia.
Qed.

Lemma run_snoc p k : run p (k + 1) = run p k ++ [p + k].
Proof.
  unfold run. replace (N.to_nat (k + 1)) with (S (N.to_nat k)) by lia.
  rewrite run_nat_snoc. now rewrite N2Nat.id.
Qed.

Lemma run_nat_ssorted p n : StronglySorted N.le (run_nat p n).
Proof.
  revert p; induction n as [|n IH]; intros p; simpl; constructor; [apply IH|].
  apply Forall_forall. intros x Hx. apply run_nat_in in Hx. lia.
Qed.

Lemma sortN_run_nat p n : sortN (run_nat p n) = run_nat p n.
Proof.
  apply ssorted_perm_eq; [apply sortN_ssorted | apply run_nat_ssorted | apply Permutation_sym, sortN_perm].
Qed.

Lemma sortedb_run_nat p m : sortedb (run_nat p m) = true.
Proof.
  revert p. induction m as [|m IH]; intros p; [reflexivity|].
  cbn [run_nat]. apply sortedb_cons. split; [|apply IH].
  intros y Hy. apply run_nat_in in Hy. lia.
Qed.
