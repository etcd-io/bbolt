(** TreeCursorProofs: the bridge from the commit model (Tree.nt) to the cursor model (Cursor.tree):
    the committed tree has no emptied non-root leaf (the hypothesis of the C05 refinement theorems) and flattens,
    in the cursor model's sense, to the same list as before. *)
From Bbolt Require Import Base BaseProofs Consts Spec Node Tree NodeProofs TreeProofs.
From Bbolt Require Cursor.

Definition elem (x : inode) : bytes * N * bytes := (i_key x, i_flags x, i_val x).

Fixpoint to_ctree (t : nt) : Cursor.tree :=
  match t with NT h il kids =>
    if h_leaf h then Cursor.Leaf (map elem il) else Cursor.Branch (combine (map i_key il) (map to_ctree kids)) end.

Lemma to_ctree_eq h il kids : to_ctree (NT h il kids) =
  if h_leaf h then Cursor.Leaf (map elem il) else Cursor.Branch (combine (map i_key il) (map to_ctree kids)).
Proof. reflexivity. Qed.

Lemma no_empty_leaf_aux : forall d t root, wf d t -> (root = true \/ ins_of t <> []) -> good [] t ->
  Cursor.has_empty_nonroot_leaf_aux root (to_ctree t) = false.
Proof.
  unfold good. induction d as [|d IH]; intros t root W Hr K; inversion W as [? ? Hl|? ? ? ? Hl Hlen Hk]; subst;
    rewrite to_ctree_eq, Hl; cbn [Cursor.has_empty_nonroot_leaf_aux ins_of kids_of] in *.
  - destruct Hr as [->|Ne]; [reflexivity|]. destruct ins; [congruence|]. cbn. now rewrite andb_false_r.
  - apply existsb_false. intros c Hc. destruct (in_combine_map _ _ _ _ Hc) as (x & Hx & ->).
    rewrite Forall_forall in K, Hk. apply IH; auto; [right; apply ag_nil_ne; auto | apply ag_kids; auto].
Qed.

Theorem good_no_empty_leaf t : aligned t -> good [] t -> Cursor.has_empty_leaf (to_ctree t) = false.
Proof. intros [d W] G. apply (no_empty_leaf_aux d t true W); auto. Qed.

(** no empty Branch either, except possibly an (all-emptied) root *)
Theorem good_branches_nonempty : forall d t, wf d t -> (ins_of t <> [] \/ h_leaf (hd_of t) = true) -> good [] t ->
  Cursor.branches_nonempty (to_ctree t) = true.
Proof.
  unfold good. induction d as [|d IH]; intros t W Hr K; inversion W as [? ? Hl|? ? ? ? Hl Hlen Hk]; subst;
    rewrite to_ctree_eq, Hl; cbn [Cursor.branches_nonempty ins_of kids_of hd_of] in *; [reflexivity|].
  apply andb_true_iff. split.
  - rewrite combine_length, !map_length, <- Hlen, Nat.min_id. destruct Hr as [Ne|E]; [|congruence]. destruct ins; [congruence | reflexivity].
  - apply forallb_forall. intros c Hc. destruct (in_combine_map _ _ _ _ Hc) as (x & Hx & ->).
    rewrite Forall_forall in K, Hk. apply IH; auto; [left; apply ag_nil_ne; auto | apply ag_kids; auto].
Qed.

Theorem flatten_to_ctree t : aligned t -> Cursor.flatten (to_ctree t) = map elem (flat t).
Proof.
  induction t as [h il kids IH] using nt_ind'. intros [d W]. inversion W as [? ? Hl|d0 ? ? ? Hl Hlen Hk]; subst;
    rewrite to_ctree_eq, flat_eq, Hl; cbn [Cursor.flatten]; [reflexivity|].
  rewrite (flat_map_combine_snd Cursor.flatten) by now rewrite !map_length.
  clear Hlen W. induction Hk as [|c l Wc _ IHl]; cbn [map flat_map]; [reflexivity|].
  rewrite map_app, (Forall_inv IH), IHl; [reflexivity | now apply Forall_inv_tail in IH | now exists d0].
Qed.

(** the commit keeps the content ([commit_tree_flat]), in the cursor model's terms *)
Theorem commit_tree_cursor_flatten ps fill fuel t order t' evs :
  aligned t -> commit_tree ps fill fuel t order = Ok (t', evs) ->
  Cursor.flatten (to_ctree t') = Cursor.flatten (to_ctree t).
Proof.
  intros A H. destruct (commit_tree_flat _ _ _ _ _ _ _ A H) as [F A'].
  rewrite (flatten_to_ctree _ A), (flatten_to_ctree _ A'). now rewrite F.
Qed.
Print Assumptions commit_tree_cursor_flatten.

(** the committed tree satisfies the hypothesis of the cursor refinement theorems *)
Theorem commit_tree_no_empty_leaf ps fill fuel t order t' evs d :
  wf d t -> (d < fuel)%nat -> closed false t -> NoDup (ids t) -> good order t ->
  commit_tree ps fill fuel t order = Ok (t', evs) -> Cursor.has_empty_leaf (to_ctree t') = false.
Proof.
  intros W L C ND G H. destruct (commit_tree_no_empty _ _ _ _ _ _ _ _ W L C ND G H) as [G' A']. now apply good_no_empty_leaf.
Qed.
Print Assumptions commit_tree_no_empty_leaf.

Example ex1_cursor :
  match commit_tree 4096 50 10 ex1 [4] with
  | Ok (t', _) => Cursor.has_empty_leaf (to_ctree t') = false /\ Cursor.has_empty_leaf (to_ctree ex1) = true /\
                  Cursor.flatten (to_ctree t') = [([1], 0, [10]); ([3], 0, [30]); ([4], 0, [40])]
  | _ => False end.
Proof. vm_compute. repeat split; reflexivity. Qed.
