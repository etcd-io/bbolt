(** Tree.v's commit (rebalance in any visit order, then spill) keeps the in-order list of leaf inodes (P1), accounts for
    every page (P2), leaves only pages (P3) and no empty page (P4); Q1, Q2 are P1, P2 for commit_bucket, where the parent
    may write the bucket inline.  The control structure is analysed once - node.rebalance on a parent and on the root by
    cases, rebalance_at as an induction from the root down the path - so each property only says what holds of one step. *)
From Bbolt Require Import Base BaseProofs Consts Spec Node Tree NodeProofs.
From Coq Require Import Permutation.

Lemma replace_nth_app {A} (a : list A) x y b : replace_nth (length a) y (a ++ x :: b) = a ++ y :: b.
Proof. induction a as [|z a IH]; [reflexivity|]. cbn. now rewrite IH. Qed.
Lemma remove_nth_app {A} (a : list A) x b : remove_nth (length a) (a ++ x :: b) = a ++ b.
Proof. induction a as [|z a IH]; [reflexivity|]. cbn. now rewrite IH. Qed.
Lemma remove_nth_app_S {A} (a : list A) x y b : remove_nth (S (length a)) (a ++ x :: y :: b) = a ++ x :: b.
Proof. induction a as [|z a IH]; [reflexivity|]. change (z :: remove_nth (S (length a)) (a ++ x :: y :: b) = z :: a ++ x :: b). now rewrite IH. Qed.
Lemma remove_nth_length {A} (l : list A) : forall i, (i < length l)%nat -> S (length (remove_nth i l)) = length l.
Proof. induction l as [|z l IH]; intros [|i] L; cbn in *; try lia. now rewrite IH by lia. Qed.

Lemma Forall_replace_nth {A} (P : A -> Prop) l : forall i y, Forall P l -> P y -> Forall P (replace_nth i y l).
Proof. induction l as [|z l IH]; intros [|i] y F Py; cbn; auto; inversion F; subst; constructor; auto. Qed.
Lemma Forall_remove_nth {A} (P : A -> Prop) l : forall i, Forall P l -> Forall P (remove_nth i l).
Proof. induction l as [|z l IH]; intros [|i] F; cbn; auto; inversion F; subst; auto. Qed.

Lemma flat_map_app' {A B} (f : A -> list B) a b : flat_map f (a ++ b) = flat_map f a ++ flat_map f b.
Proof. apply flat_map_app. Qed.

Fixpoint flat (t : nt) : list inode :=
  match t with NT h ins kids => if h_leaf h then ins else flat_map flat kids end.

Lemma flat_eq h ins kids : flat (NT h ins kids) = if h_leaf h then ins else flat_map flat kids.
Proof. reflexivity. Qed.

Fixpoint nt_ind' (P : nt -> Prop) (H : forall h ins kids, Forall P kids -> P (NT h ins kids)) (t : nt) : P t :=
  match t with NT h ins kids =>
    H h ins kids ((fix go (l : list nt) : Forall P l :=
                     match l with [] => Forall_nil P | x :: r => Forall_cons x (nt_ind' P H x) (go r) end) kids) end.

(** [wf d t]: a B+tree of height d.  The height index is needed: node.rebalance merges two siblings by concatenating
    their inodes AND kids under the left sibling's header; see [merge_needs_balance]. *)
Inductive wf : nat -> nt -> Prop :=
| wf_leaf h ins : h_leaf h = true -> wf 0 (NT h ins [])
| wf_branch d h ins kids : h_leaf h = false -> length ins = length kids -> Forall (wf d) kids -> wf (S d) (NT h ins kids).
Definition aligned (t : nt) : Prop := exists d, wf d t.

Lemma wf_hdr d h h' ins kids : wf d (NT h ins kids) -> h_leaf h' = h_leaf h -> wf d (NT h' ins kids).
Proof. intros W E. inversion W; subst; constructor; auto; congruence. Qed.

Lemma wf_leaf_iff d t : wf d t -> h_leaf (hd_of t) = match d with O => true | S _ => false end.
Proof. intros W; inversion W; subst; auto. Qed.

Lemma wf_kids d h ins a c b : wf d (NT h ins (a ++ c :: b)) ->
  exists d0, d = S d0 /\ h_leaf h = false /\ length ins = length (a ++ c :: b) /\ Forall (wf d0) a /\ wf d0 c /\ Forall (wf d0) b.
Proof.
  intros W. inversion W as [|d0 ? ? ? Hl Hlen Hk]; subst; [destruct a; discriminate|]. apply Forall_mid in Hk. exists d0. tauto.
Qed.

Lemma ins_set_unbal b t : ins_of (set_unbal b t) = ins_of t.
Proof. now destruct t. Qed.
Lemma kids_set_unbal b t : kids_of (set_unbal b t) = kids_of t.
Proof. now destruct t. Qed.
Lemma wf_materialize d t : wf d t -> wf d (materialize t).
Proof. destruct t as [h i k]. intros W. cbn. destruct (h_mat h); [exact W|]. eapply wf_hdr; eauto. Qed.
Lemma flat_materialize t : flat (materialize t) = flat t.
Proof. destruct t as [h i k]. cbn. destruct (h_mat h); reflexivity. Qed.
Lemma ins_materialize t : ins_of (materialize t) = ins_of t.
Proof. destruct t as [h i k]. cbn. destruct (h_mat h); reflexivity. Qed.
Lemma kids_materialize t : kids_of (materialize t) = kids_of t.
Proof. destruct t as [h i k]. cbn. destruct (h_mat h); reflexivity. Qed.
Lemma leaf_materialize t : h_leaf (hd_of (materialize t)) = h_leaf (hd_of t).
Proof. destruct t as [h i k]. cbn. destruct (h_mat h); reflexivity. Qed.
Lemma mat_materialize t : h_mat (hd_of (materialize t)) = true.
Proof. destruct t as [h i k]. cbn. now destruct (h_mat h) eqn:E. Qed.
Lemma materialize_mat t : h_mat (hd_of t) = true -> materialize t = t.
Proof. destruct t as [h i k]. cbn. now intros ->. Qed.

Lemma wf_empty d t : wf d t -> ins_of t = [] -> kids_of t = [] /\ flat t = [].
Proof.
  intros W E. inversion W as [? ? Hl|? ? ? kids Hl Hlen _]; subst; cbn in *; subst; rewrite Hl; [auto|].
  destruct kids; [auto | discriminate].
Qed.

Lemma wf_leaf_inv d r : wf d r -> h_leaf (hd_of r) = true -> d = 0%nat /\ kids_of r = [] /\ flat r = ins_of r.
Proof. intros W L. inversion W as [? ? Hl|]; subst; cbn in *; [|congruence]. rewrite Hl. auto. Qed.

Definition unb (ph : nhdr) : nhdr :=
  {| h_mat := h_mat ph; h_unbal := true; h_pgid := h_pgid ph; h_ov := h_ov ph; h_key := h_key ph; h_leaf := h_leaf ph |}.
Definition merged (l0 r0 : nt) : nt :=
  NT (hd_of (materialize l0)) (ins_of (materialize l0) ++ ins_of (materialize r0)) (kids_of (materialize l0) ++ kids_of (materialize r0)).

Lemma free_ev_set_unbal b t : free_ev (set_unbal b t) = free_ev t.
Proof. now destruct t. Qed.

(** where node.go finds a child by its key, the model checks that the search lands on the expected position *)
Lemma index_guard {A} l k i (x : A) r :
  match index_of_key l k with Some idx => if Nat.eqb idx i then Ok x else Panic | None => Panic end = Ok r -> (i < length l)%nat /\ r = x.
Proof.
  unfold index_of_key. destruct (nth_error l _) as [y|] eqn:Ey; [|discriminate]. destruct (beq _ _); [|discriminate].
  destruct (Nat.eqb_spec (search (length l) (key_ge l k)) i) as [<-|]; [|discriminate]. intros H. injection H as <-.
  split; [eapply nth_error_lt; eauto | reflexivity].
Qed.

(** indices: what rebalance_in_parent makes of the parent for its child [n], the events, whether the parent is next *)
Inductive rip_res (ph : nhdr) (pins : list inode) (a : list nt) (n : nt) (b : list nt) : nt -> list ev -> bool -> Prop :=
| rip_balanced : h_unbal (hd_of n) = false -> rip_res ph pins a n b (NT ph pins (a ++ n :: b)) [] false
| rip_big_enough : ins_of n <> [] -> rip_res ph pins a n b (NT ph pins (a ++ set_unbal false n :: b)) [] false
| rip_removed : ins_of n = [] -> (length a < length pins)%nat ->
    rip_res ph pins a n b (NT (unb ph) (remove_nth (length a) pins) (a ++ b)) (free_ev n) true
| rip_merged a1 l0 r0 b1 : ins_of n <> [] -> a ++ set_unbal false n :: b = a1 ++ l0 :: r0 :: b1 -> (S (length a1) < length pins)%nat ->
    rip_res ph pins a n b (NT (unb ph) (remove_nth (S (length a1)) pins) (a1 ++ merged l0 r0 :: b1)) (free_ev (materialize r0)) true.

Lemma rip_shape ps fill ph pins a n b p' evs cont :
  rebalance_in_parent ps fill (NT ph pins (a ++ n :: b)) (length a) = Ok (p', evs, cont) -> rip_res ph pins a n b p' evs cont.
Proof.
  intros H. cbv beta iota zeta delta [rebalance_in_parent] in H. rewrite nth_error_mid, replace_nth_app, remove_nth_app in H.
  destruct (h_unbal (hd_of n)) eqn:Hu; cbn [negb] in H. 2:{ injection H as <- <- <-. now constructor. }
  destruct (big_enough _ ps fill) eqn:Big.
  { injection H as <- <- <-. apply rip_big_enough. intros E0. unfold big_enough in Big. apply andb_true_iff in Big. destruct Big as [_ Big].
    cbn [as_node n_inodes] in Big. rewrite ins_set_unbal, E0 in Big. cbn [length] in Big. apply Nat.ltb_lt in Big. lia. }
  rewrite ins_set_unbal in H. destruct (ins_of n) as [|x0 xs] eqn:Ei.
  - apply index_guard in H. destruct H as [Li H]. injection H as -> -> ->. rewrite free_ev_set_unbal. now apply rip_removed.
  - destruct (length pins <=? 1)%nat; [discriminate|]. destruct (negb _); [discriminate|].
    set (lp := if Nat.eqb (length a) 0 then 0%nat else (length a - 1)%nat) in *.
    destruct (nth_error (a ++ set_unbal false n :: b) lp) as [l0|] eqn:El; [|discriminate].
    destruct (nth_error (a ++ set_unbal false n :: b) (S lp)) as [r0|] eqn:Er; [|discriminate].
    apply index_guard in H. destruct H as [Li H].
    destruct (nth_error_decomp2 _ _ _ _ El Er) as (a1 & b1 & Ek1 & La1). rewrite <- La1 in *.
    rewrite Ek1, replace_nth_app, remove_nth_app_S in H. injection H as -> -> ->.
    apply rip_merged; [rewrite Ei; discriminate | exact Ek1 | exact Li].
Qed.

Inductive root_res : nt -> nt * list ev -> Prop :=
| root_same t : root_res t (t, [])
| root_balanced t : root_res t (set_unbal false t, [])
| root_collapsed h x c0 : h_leaf h = false ->
    root_res (NT h [x] [c0])
      (NT {| h_mat := h_mat h; h_unbal := false; h_pgid := h_pgid h; h_ov := h_ov h; h_key := h_key h;
             h_leaf := h_leaf (hd_of (materialize c0)) |} (ins_of (materialize c0)) (kids_of (materialize c0)),
       free_ev (materialize c0)).

Lemma rebalance_root_shape ps fill t : root_res t (rebalance_root ps fill t).
Proof.
  unfold rebalance_root. destruct (negb (h_unbal (hd_of t))); [constructor|].
  destruct (big_enough _ ps fill); [constructor|].
  (* the match on leaf flag, inodes and children: only a branch with one inode and one child is collapsed *)
  destruct t as [[m u pg ov k [|]] [|x [|x2 xs]] [|c0 [|c1 cs]]]; try apply root_balanced.
  now apply (root_collapsed (Build_nhdr m u pg ov k false)).
Qed.

Definition ownh (h : nhdr) : list (N * N) := if h_pgid h =? 0 then [] else [(h_pgid h, h_ov h)].
Fixpoint runs (t : nt) : list (N * N) :=
  match t with NT h _ kids => ownh h ++ flat_map runs kids end.
Definition ids (t : nt) : list N := map fst (runs t).
Fixpoint freed (evs : list ev) : list (N * N) :=
  match evs with [] => [] | EvFree p o :: r => (p, o) :: freed r | EvAlloc _ :: r => freed r end.
Fixpoint allocs (evs : list ev) : list N :=
  match evs with [] => [] | EvFree _ _ :: r => allocs r | EvAlloc n :: r => n :: allocs r end.

Lemma runs_eq h ins kids : runs (NT h ins kids) = ownh h ++ flat_map runs kids.
Proof. reflexivity. Qed.
Lemma runs_hd_kids t : runs t = ownh (hd_of t) ++ flat_map runs (kids_of t).
Proof. now destruct t. Qed.
Lemma freed_app a b : freed (a ++ b) = freed a ++ freed b.
Proof. induction a as [|[p o|n] a IH]; cbn; [auto | now rewrite IH | auto]. Qed.
Lemma allocs_app a b : allocs (a ++ b) = allocs a ++ allocs b.
Proof. induction a as [|[p o|n] a IH]; cbn; [auto | auto | now rewrite IH]. Qed.
Lemma freed_free_ev t : freed (free_ev t) = ownh (hd_of t).
Proof. unfold free_ev, ownh. now destruct (h_pgid (hd_of t) =? 0). Qed.
Lemma allocs_free_ev t : allocs (free_ev t) = [].
Proof. unfold free_ev. now destruct (h_pgid (hd_of t) =? 0). Qed.
Lemma runs_materialize t : runs (materialize t) = runs t.
Proof. destruct t as [h i k]. cbn. now destruct (h_mat h). Qed.

Definition acct (l : list (N * N)) (evs : list ev) (l' : list (N * N)) : Prop := Permutation l (freed evs ++ l').

Lemma acct_refl l : acct l [] l.
Proof. apply Permutation_refl. Qed.
Lemma acct_trans l e1 l1 e2 l2 : acct l e1 l1 -> acct l1 e2 l2 -> acct l (e1 ++ e2) l2.
Proof. unfold acct. intros H1 H2. now rewrite H1, H2, freed_app, app_assoc. Qed.
Lemma acct_app l1 e1 l1' l2 e2 l2' : acct l1 e1 l1' -> acct l2 e2 l2' -> acct (l1 ++ l2) (e1 ++ e2) (l1' ++ l2').
Proof.
  unfold acct. intros H1 H2. rewrite H1, H2, freed_app, <- !app_assoc. apply Permutation_app_head.
  rewrite !app_assoc. apply Permutation_app_tail, Permutation_app_comm.
Qed.
Lemma acct_frame x y l e l' : acct l e l' -> acct (x ++ l ++ y) e (x ++ l' ++ y).
Proof. unfold acct. intros H. rewrite H, <- app_assoc. apply Permutation_app_swap_app. Qed.
Lemma acct_free c : acct (runs c) (free_ev c) (flat_map runs (kids_of c)).
Proof. unfold acct. now rewrite freed_free_ev, <- runs_hd_kids. Qed.

Lemma In_freed p o evs : In (EvFree p o) evs <-> In (p, o) (freed evs).
Proof.
  induction evs as [|[p' o'|n] evs IH]; cbn; [tauto | |].
  - rewrite <- IH. split; (intros [E|]; [left; congruence | auto]).
  - rewrite <- IH. split; [intros [E|]; [discriminate | auto] | auto].
Qed.

Lemma acct_frees t evs t' : acct (runs t) evs (runs t') -> NoDup (ids t) ->
  (forall p ov, In (EvFree p ov) evs -> In (p, ov) (runs t)) /\
  NoDup (map fst (freed evs)) /\
  NoDup (ids t') /\
  (forall x, In x (ids t') <-> In x (ids t) /\ ~ In x (map fst (freed evs))).
Proof.
  intros HP ND. pose proof (Permutation_map fst HP) as HM. rewrite map_app in HM.
  destruct (perm_nodup_parts _ _ _ HM ND) as (Nf & Nk & _ & K). split; [|now auto].
  intros p ov Hin. apply In_freed in Hin. eapply Permutation_in; [symmetry; exact HP | apply in_or_app; auto].
Qed.

Definition keeps (d : nat) (t : nt) (evs : list ev) (t' : nt) : Prop :=
  wf d t' /\ flat t' = flat t /\ acct (runs t) evs (runs t').

Lemma keeps_refl d t : wf d t -> keeps d t [] t.
Proof. intros W. repeat split; auto. apply acct_refl. Qed.
Lemma keeps_trans d1 d2 t e1 t1 e2 t2 : keeps d1 t e1 t1 -> keeps d2 t1 e2 t2 -> keeps d2 t (e1 ++ e2) t2.
Proof. intros (_ & F1 & A1) (W2 & F2 & A2). repeat split; [auto | congruence | eapply acct_trans; eauto]. Qed.
Lemma keeps_set_unbal d b t : wf d t -> keeps d t [] (set_unbal b t).
Proof. destruct t as [h i k]. intros W. repeat split; [eapply wf_hdr; eauto | apply acct_refl]. Qed.

Lemma keeps_kid d h ins a c b e c' : wf d (NT h ins (a ++ c :: b)) -> (forall d0, wf d0 c -> keeps d0 c e c') ->
  keeps d (NT h ins (a ++ c :: b)) e (NT h ins (a ++ c' :: b)).
Proof.
  intros W Hc. destruct (wf_kids _ _ _ _ _ _ W) as (d0 & -> & Hl & Hlen & Wa & Wc & Wb).
  destruct (Hc d0 Wc) as (Wc' & Fc & Ac). repeat split.
  - constructor; auto; [now rewrite Hlen, !app_length | now apply Forall_mid].
  - rewrite !flat_eq, Hl, !flat_map_mid. now rewrite Fc.
  - rewrite !runs_eq, !flat_map_mid, !(app_assoc (ownh h)). now apply acct_frame.
Qed.

Lemma keeps_remove d ph pins a n b : wf d (NT ph pins (a ++ n :: b)) -> ins_of n = [] -> (length a < length pins)%nat ->
  keeps d (NT ph pins (a ++ n :: b)) (free_ev n) (NT (unb ph) (remove_nth (length a) pins) (a ++ b)).
Proof.
  intros W Ei Li. destruct (wf_kids _ _ _ _ _ _ W) as (d0 & -> & Hl & Hlen & Wa & Wn & Wb).
  destruct (wf_empty _ _ Wn Ei) as [Kn Fn]. repeat split.
  - constructor; auto; [|now apply Forall_app]. apply eq_add_S. rewrite remove_nth_length, Hlen, !app_length by auto. cbn. lia.
  - rewrite !flat_eq. cbn [unb h_leaf]. now rewrite Hl, flat_map_mid, flat_map_app, Fn.
  - rewrite !runs_eq, flat_map_mid, flat_map_app, !(app_assoc (ownh ph)).
    apply (acct_frame _ _ _ _ []). generalize (acct_free n). now rewrite Kn.
Qed.

Lemma wf_merge d l r : wf d l -> wf d r -> wf d (merged l r) /\ flat (merged l r) = flat l ++ flat r.
Proof.
  intros Wl Wr. apply wf_materialize in Wl, Wr. rewrite <- (flat_materialize l), <- (flat_materialize r). unfold merged.
  inversion Wl as [? ? Hl|? ? ? ? Hl]; subst; inversion Wr as [? ? Hr|? ? ? ? Hr]; subst; cbn [hd_of ins_of kids_of app]; rewrite !flat_eq, Hl, Hr.
  - split; [now constructor | reflexivity].
  - split; [constructor; auto; [rewrite !app_length; lia | now apply Forall_app] | apply flat_map_app].
Qed.
Lemma keeps_merge d ph pins a l0 r0 b : wf d (NT ph pins (a ++ l0 :: r0 :: b)) -> (S (length a) < length pins)%nat ->
  keeps d (NT ph pins (a ++ l0 :: r0 :: b)) (free_ev (materialize r0))
          (NT (unb ph) (remove_nth (S (length a)) pins) (a ++ merged l0 r0 :: b)).
Proof.
  intros W Li. destruct (wf_kids _ _ _ _ _ _ W) as (d0 & -> & Hl & Hlen & Wa & Wl & Wb).
  apply Forall_cons_iff in Wb. destruct Wb as [Wr Wb]. destruct (wf_merge _ _ _ Wl Wr) as [Wm Fm]. repeat split.
  - constructor; auto; [|now apply Forall_mid]. apply eq_add_S. rewrite remove_nth_length, Hlen, !app_length by auto. cbn. lia.
  - rewrite !flat_eq. cbn [unb h_leaf]. rewrite Hl, !flat_map_mid, Fm. cbn [flat_map]. now rewrite <- app_assoc.
  - rewrite !runs_eq, !flat_map_mid, !(app_assoc (ownh ph)). cbn [flat_map]. rewrite (app_assoc (runs l0)).
    apply acct_frame. unfold merged. rewrite runs_eq, flat_map_app, app_assoc, <- runs_hd_kids, runs_materialize.
    apply (acct_app _ [] _ _ _ _ (acct_refl _)). rewrite <- (runs_materialize r0). apply acct_free.
Qed.

Lemma rip_keeps ps fill ph pins a n b p' evs cont d : wf d (NT ph pins (a ++ n :: b)) ->
  rebalance_in_parent ps fill (NT ph pins (a ++ n :: b)) (length a) = Ok (p', evs, cont) -> keeps d (NT ph pins (a ++ n :: b)) evs p'.
Proof.
  intros W H. destruct (rip_shape _ _ _ _ _ _ _ _ _ _ H) as [_|_|Ei Li|a1 l0 r0 b1 _ E Li].
  - now apply keeps_refl.
  - apply keeps_kid; auto. intros d0. apply keeps_set_unbal.
  - now apply keeps_remove.
  - assert (K1 : keeps d (NT ph pins (a ++ n :: b)) [] (NT ph pins (a1 ++ l0 :: r0 :: b1))).
    { rewrite <- E. apply keeps_kid; auto. intros d0. apply keeps_set_unbal. }
    apply (keeps_trans _ _ _ _ _ _ _ K1). apply keeps_merge; [apply K1 | exact Li].
Qed.

Lemma rebalance_root_keeps ps fill t d :
  wf d t -> exists d', (d' <= d)%nat /\ keeps d' t (snd (rebalance_root ps fill t)) (fst (rebalance_root ps fill t)).
Proof.
  destruct (rebalance_root_shape ps fill t) as [t|t|h x c0 Hl]; intros W; cbn [fst snd].
  - exists d. split; [apply le_n | now apply keeps_refl].
  - exists d. split; [apply le_n | now apply keeps_set_unbal].
  - destruct (wf_kids _ _ _ [] _ _ W) as (d0 & -> & _ & _ & _ & Wc & _). exists d0. split; [apply Nat.le_succ_diag_r|].
    apply wf_materialize in Wc. unfold keeps. rewrite (flat_eq h), Hl, (runs_eq h). cbn [flat_map]. rewrite !app_nil_r, <- (flat_materialize c0), <- (runs_materialize c0).
    destruct (materialize c0) as [hc ic kc] eqn:Ec. cbn [hd_of ins_of kids_of]. repeat split.
    + eapply wf_hdr; eauto.
    + apply (acct_app _ [] _ _ _ _ (acct_refl (ownh h)) (acct_free (NT hc ic kc))).
Qed.

Lemma set_at_cons h ins a c b r x : set_at (NT h ins (a ++ c :: b)) (length a :: r) x = NT h ins (a ++ set_at c r x :: b).
Proof. cbn [set_at]. now rewrite nth_error_mid, replace_nth_app. Qed.
Lemma get_at_cons : forall t j r p, get_at t (j :: r) = Some p ->
  exists h ins a c b, t = NT h ins (a ++ c :: b) /\ length a = j /\ get_at c r = Some p.
Proof.
  intros [h ins kids] j r p G. cbn [get_at kids_of] in G. destruct (nth_error kids j) as [c|] eqn:Ec; [|discriminate].
  destruct (nth_error_split _ _ Ec) as (a & b & -> & L). eauto 8.
Qed.

Lemma set_at_same : forall path t v, get_at t path = Some v -> set_at t path v = t.
Proof.
  induction path as [|j r IH]; intros t v G; [now injection G as <-|].
  destruct (get_at_cons _ _ _ _ G) as (h & ins & a & c & b & -> & <- & Gc). now rewrite set_at_cons, (IH _ _ Gc).
Qed.

Lemma parent_at : forall pp t i s, get_at t (pp ++ [i]) = Some s ->
  exists h ins a b, length a = i /\ get_at t pp = Some (NT h ins (a ++ s :: b)) /\
    forall x, get_at (set_at t (pp ++ [i]) x) pp = Some (NT h ins (a ++ x :: b)) /\
              forall q, set_at (set_at t (pp ++ [i]) x) pp q = set_at t pp q.
Proof.
  induction pp as [|j r IH]; intros t i s G; cbn [app] in G; destruct (get_at_cons _ _ _ _ G) as (h & ins & a & c & b & -> & <- & Gc).
  - injection Gc as ->. exists h, ins, a, b. repeat split. cbn [app]. now rewrite set_at_cons.
  - destruct (IH _ _ _ Gc) as (h' & ins' & a' & b' & L & Gp & Hx). exists h', ins', a', b'. split; [exact L|].
    cbn [app get_at kids_of]. rewrite nth_error_mid. split; [exact Gp|]. intros x. destruct (Hx x) as [Gx Sx].
    rewrite set_at_cons. cbn [get_at kids_of]. rewrite nth_error_mid. split; [exact Gx|]. intros q. now rewrite !set_at_cons, Sx.
Qed.

(** node.go climbs parent pointers, and [rebalance_at] follows it with get_at / set_at on the whole tree.  Seen from the
    root, the climb inside the child the path goes through comes first, then it is this vertex's turn.  So it is enough
    to give a [P t path t1 e cont] - the climb along [path] inside the subtree [t] has made [t1] of it, with events [e],
    and [cont] says whether [t1] itself is next - that holds at the end of the path and passes from a child to its
    parent through one rebalance_in_parent (none, once the climb has stopped).  What is left is the step at the root. *)
Section RebalanceDown.
  Variables (ps fill : N) (P : nt -> list nat -> nt -> list ev -> bool -> Prop).
  Hypothesis P_end : forall t, P t [] t [] true.
  Hypothesis P_step : forall h ins a c b r c' e cont p' e2 cont2, P c r c' e cont ->
    (if cont then rebalance_in_parent ps fill (NT h ins (a ++ c' :: b)) (length a) else Ok (NT h ins (a ++ c' :: b), [], false))
      = Ok (p', e2, cont2) ->
    P (NT h ins (a ++ c :: b)) (length a :: r) p' (e ++ e2) cont2.

  Lemma down_stop : forall pp t sub r x e, get_at t pp = Some sub -> P sub r x e false -> P t (pp ++ r) (set_at t pp x) e false.
  Proof.
    induction pp as [|j r0 IH]; intros t sub r x e G Hp; [now injection G as <-|].
    destruct (get_at_cons _ _ _ _ G) as (h & ins & a & c & b & -> & <- & Gc). rewrite set_at_cons, <- (app_nil_r e).
    exact (P_step _ _ _ _ _ _ _ _ false _ _ _ (IH _ _ _ _ _ Gc Hp) eq_refl).
  Qed.

  Definition ends_at_root (r : nt * list ev) (t1 : nt) (e1 : list ev) (cont : bool) : Prop :=
    r = if cont then (fst (rebalance_root ps fill t1), e1 ++ snd (rebalance_root ps fill t1)) else (t1, e1).

  Lemma up_from : forall fuel pp t sub r x e t' e', get_at t pp = Some sub -> P sub r x e true ->
    rebalance_at ps fill fuel (set_at t pp x) pp = Ok (t', e') -> exists t1 e1 cont, P t (pp ++ r) t1 e1 cont /\ ends_at_root (t', e ++ e') t1 e1 cont.
  Proof.
    induction fuel as [|f IH]; intros pp t sub r x e t' e' G Hp H; [discriminate|]. cbn [rebalance_at] in H. destruct pp as [|i0 r0].
    { injection G as <-. injection H as H. exists x, e, true. split; [exact Hp|]. unfold ends_at_root. now rewrite H. }
    destruct (exists_last (l := i0 :: r0)) as (pp' & i & Ep); [discriminate|]. rewrite Ep in *. rewrite removelast_last, last_last in H.
    destruct (parent_at _ _ _ _ G) as (h & ins & a & b & <- & Gp & Hx). destruct (Hx x) as [Gx Sx]. rewrite Gx in H.
    apply bind_ok in H. destruct H as ([[p' e2] c] & Hr & H). rewrite Sx in H.
    pose proof (P_step _ _ _ _ _ _ _ _ true _ _ _ Hp Hr) as Hp'. rewrite <- app_assoc. cbn [app]. destruct c.
    - apply bind_ok in H. destruct H as ([t2 e3] & H2 & H). injection H as <- <-. rewrite app_assoc. eauto.
    - injection H as <- <-. exists (set_at t pp' p'), (e ++ e2), false. split; [exact (down_stop _ _ _ _ _ _ Gp Hp') | reflexivity].
  Qed.

  Lemma rebalance_at_down fuel t path v t' e : get_at t path = Some v -> rebalance_at ps fill fuel t path = Ok (t', e) ->
    exists t1 e1 cont, P t path t1 e1 cont /\ ends_at_root (t', e) t1 e1 cont.
  Proof.
    intros G H. rewrite <- (set_at_same _ _ _ G) in H. rewrite <- (app_nil_r path). exact (up_from _ _ _ _ _ _ _ _ _ G (P_end v) H).
  Qed.
End RebalanceDown.

(** the inner loop of [find_node], as a top-level function of the recursive call *)
Section FindGo.
  Variable fn : nt -> option (list nat).
  Fixpoint find_go (i : nat) (ks : list nt) : option (list nat) :=
    match ks with [] => None | c :: r =>
      match (if h_mat (hd_of c) then fn c else None) with Some p => Some (i :: p) | None => find_go (S i) r end end.
End FindGo.
Lemma find_node_unfold f t pg : find_node (S f) t pg =
  if h_mat (hd_of t) && (h_pgid (hd_of t) =? pg) then Some [] else find_go (fun c => find_node f c pg) 0%nat (kids_of t).
Proof. reflexivity. Qed.

Lemma find_go_spec fn : forall ks i path, find_go fn i ks = Some path ->
  exists j c p, path = (i + j)%nat :: p /\ nth_error ks j = Some c /\ h_mat (hd_of c) = true /\ fn c = Some p.
Proof.
  induction ks as [|c r IH]; intros i path H; cbn in H; [discriminate|].
  destruct (h_mat (hd_of c)) eqn:M; [destruct (fn c) as [p|] eqn:E|].
  1:{ injection H as <-. exists 0%nat, c, p. rewrite Nat.add_0_r. auto. }
  all: destruct (IH _ _ H) as (j & c' & p & -> & En & M' & E'); exists (S j), c', p; rewrite Nat.add_succ_r; auto.
Qed.

Lemma find_node_sound : forall fuel t pg path, find_node fuel t pg = Some path ->
  exists v, get_at t path = Some v /\ h_mat (hd_of v) = true /\ h_pgid (hd_of v) = pg.
Proof.
  induction fuel as [|f IH]; intros t pg path H; [discriminate|].
  rewrite find_node_unfold in H.
  destruct (h_mat (hd_of t) && (h_pgid (hd_of t) =? pg)) eqn:E.
  - injection H as <-. apply andb_true_iff in E. destruct E as [M E]. apply N.eqb_eq in E. exists t. auto.
  - destruct (find_go_spec _ _ _ _ H) as (j & c & p & -> & En & M & Ef). cbn [Nat.add get_at]. rewrite En. eauto.
Qed.

Section RebalanceAllLift.
  Variables (ps fill : N) (fuel : nat) (J : nt -> Prop) (R : nt -> list ev -> nt -> Prop).
  Hypothesis R_refl : forall t, J t -> R t [] t.
  Hypothesis R_trans : forall t e1 t1 e2 t2, R t e1 t1 -> R t1 e2 t2 -> R t (e1 ++ e2) t2.
  Hypothesis J_keep : forall t e t', J t -> R t e t' -> J t'.
  Hypothesis visit : forall t path v t1 e1, J t -> get_at t path = Some v -> h_mat (hd_of v) = true ->
    rebalance_at ps fill fuel t path = Ok (t1, e1) -> R t e1 t1.

  Lemma rebalance_all_lift : forall order t t' e, J t -> rebalance_all ps fill fuel t order = Ok (t', e) -> R t e t'.
  Proof.
    induction order as [|pg rest IH]; intros t t' e Hj H; cbn [rebalance_all] in H. { injection H as <- <-. auto. }
    destruct (find_node fuel t pg) as [path|] eqn:Fn; [|eauto]. destruct (find_node_sound _ _ _ _ Fn) as (v & Gv & Mv & _).
    apply bind_ok in H. destruct H as ([t1 e1] & H1 & H). apply bind_ok in H. destruct H as ([t2 e2] & H2 & H). injection H as <- <-.
    pose proof (visit _ _ _ _ _ Hj Gv Mv H1) as R1. exact (R_trans _ _ _ _ _ R1 (IH _ _ _ (J_keep _ _ _ Hj R1) H2)).
  Qed.
End RebalanceAllLift.

(** the height can drop: the root may be replaced by its single child *)
Definition keeps_le (t : nt) (evs : list ev) (t' : nt) : Prop := forall d, wf d t -> exists d', (d' <= d)%nat /\ keeps d' t evs t'.

Lemma keeps_le_trans t e1 t1 e2 t2 : keeps_le t e1 t1 -> keeps_le t1 e2 t2 -> keeps_le t (e1 ++ e2) t2.
Proof.
  intros H1 H2 d W. destruct (H1 d W) as (d1 & L1 & K1). destruct (H2 d1 (proj1 K1)) as (d2 & L2 & K2).
  exists d2. split; [eapply Nat.le_trans; eauto | eapply keeps_trans; eauto].
Qed.

Lemma rebalance_at_keeps ps fill fuel t path v t' evs :
  get_at t path = Some v -> rebalance_at ps fill fuel t path = Ok (t', evs) -> keeps_le t evs t'.
Proof.
  intros G H d W. eapply (rebalance_at_down ps fill (fun t _ t1 e _ => forall d, wf d t -> keeps d t e t1)) in H as (t1 & e1 & cont & K & Hf);
    [specialize (K d W) | intros t0 d0; apply keeps_refl | | exact G].
  - destruct cont; injection Hf as -> ->; [|exists d; auto].
    destruct (rebalance_root_keeps ps fill t1 d (proj1 K)) as (d' & L & K'). exists d'. split; [exact L | eapply keeps_trans; eauto].
  - intros h ins a c b r c' e cont p' e2 cont2 IH Hs d0 W0. pose proof (keeps_kid _ _ _ _ _ _ _ _ W0 IH) as K.
    apply (keeps_trans _ _ _ _ _ _ _ K). destruct cont; [exact (rip_keeps _ _ _ _ _ _ _ _ _ _ _ (proj1 K) Hs)|].
    injection Hs as <- <- <-. apply keeps_refl, K.
Qed.

Lemma rebalance_all_keeps ps fill fuel order t t' evs : rebalance_all ps fill fuel t order = Ok (t', evs) -> keeps_le t evs t'.
Proof.
  apply (rebalance_all_lift ps fill fuel (fun _ => True) keeps_le); auto.
  - intros t0 _ d W. exists d. split; [apply le_n | now apply keeps_refl].
  - apply keeps_le_trans.
  - intros t0 path v t1 e1 _ Gv _. now apply rebalance_at_keeps with v.
Qed.

Lemma rebalance_at_allocs ps fill fuel t path v t' evs :
  get_at t path = Some v -> rebalance_at ps fill fuel t path = Ok (t', evs) -> allocs evs = [].
Proof.
  intros G H. eapply (rebalance_at_down ps fill (fun _ _ _ e _ => allocs e = [])) in H as (t1 & e1 & cont & A1 & Hf); [|reflexivity| |exact G].
  - destruct cont; injection Hf as _ ->; [|exact A1]. rewrite allocs_app, A1.
    destruct (rebalance_root_shape ps fill t1); [reflexivity | reflexivity | apply allocs_free_ev].
  - intros h ins a c b r c' e cont0 p' e2 cont2 IH Hs. rewrite allocs_app, IH. cbn [app]. destruct cont0; [|now injection Hs as _ <- _].
    destruct (rip_shape _ _ _ _ _ _ _ _ _ _ Hs); auto using allocs_free_ev.
Qed.

Lemma rebalance_all_allocs ps fill fuel order t t' evs : rebalance_all ps fill fuel t order = Ok (t', evs) -> allocs evs = [].
Proof.
  apply (rebalance_all_lift ps fill fuel (fun _ => True) (fun _ e _ => allocs e = [])); auto.
  - intros t0 e1 t1 e2 t2 E1 E2. now rewrite allocs_app, E1, E2.
  - intros t0 path v t1 e1 _ Gv _. now apply rebalance_at_allocs with v.
Qed.

(** z = true also asks for a page id <> 0, which the allocation count needs *)
Definition pgok (z : bool) (h : nhdr) : Prop := z = true -> h_pgid h <> 0.
Inductive allpg (z : bool) : nt -> Prop :=
| allpg_i h ins kids : h_mat h = false -> pgok z h -> Forall (allpg z) kids -> allpg z (NT h ins kids).
(** materialised vertices form a prefix-closed set: below a page there are only pages *)
Inductive closed (z : bool) : nt -> Prop :=
| closed_page t : allpg z t -> closed z t
| closed_mat h ins kids : h_mat h = true -> Forall (closed z) kids -> closed z (NT h ins kids).

Lemma closed_kids z t : closed z t -> Forall (closed z) (kids_of t).
Proof.
  intros [t0 A|h ins kids _ F]; [|exact F]. inversion A; subst. cbn. eapply Forall_impl; [|eauto]. intros; now constructor.
Qed.
Lemma closed_nonmat z t : closed z t -> h_mat (hd_of t) = false -> allpg z t.
Proof. intros [t0 A|h ins kids M F] E; [auto | cbn in E; congruence]. Qed.
Fixpoint all_pages_b (t : nt) : bool := match t with NT h _ kids => negb (h_mat h) && forallb all_pages_b kids end.
Lemma allpg_b t : allpg false t <-> all_pages_b t = true.
Proof.
  induction t as [h ins kids IH] using nt_ind'. cbn [all_pages_b]. rewrite andb_true_iff, forallb_forall, negb_true_iff.
  rewrite Forall_forall in IH. split.
  - intros A. inversion A as [? ? ? M _ FK]; subst. rewrite Forall_forall in FK. split; auto. intros x Hx. apply IH; auto.
  - intros [M FK]. constructor; auto; [intros E; discriminate|]. apply Forall_forall. intros x Hx. apply IH; auto.
Qed.

Lemma closed_parent_mat z t c : closed z t -> In c (kids_of t) -> h_mat (hd_of c) = true -> h_mat (hd_of t) = true.
Proof.
  intros [t0 A|h ins kids M _] Hc Mc; [|exact M]. inversion A as [? ? ? _ _ FK]; subst.
  rewrite Forall_forall in FK. destruct (FK c Hc). cbn in Mc. congruence.
Qed.
Lemma closed_set_unbal z b t : closed z t -> closed z (set_unbal b t).
Proof.
  destruct t as [h i k]. intros C. inversion C as [t0 A|? ? ? M F]; subst; [|now apply closed_mat].
  inversion A; subst. apply closed_page. now constructor.
Qed.
Lemma closed_materialize z t : closed z t -> closed z (materialize t).
Proof.
  intros C. pose proof (closed_kids _ _ C) as K. destruct t as [h i k]. cbn in *. destruct (h_mat h); [auto|]. now apply closed_mat.
Qed.
Lemma closed_merged z l0 r0 : closed z l0 -> closed z r0 -> closed z (merged l0 r0).
Proof.
  intros Cl Cr. unfold merged. pose proof (mat_materialize l0) as M. rewrite !kids_materialize.
  destruct (materialize l0) as [h i k]. apply closed_mat; auto. apply Forall_app. split; now apply closed_kids.
Qed.

Lemma rip_closed z ps fill ph pins a n b p' evs cont : closed z (NT ph pins (a ++ n :: b)) -> h_mat ph = true ->
  rebalance_in_parent ps fill (NT ph pins (a ++ n :: b)) (length a) = Ok (p', evs, cont) -> closed z p' /\ h_mat (hd_of p') = true.
Proof.
  intros C M H. pose proof (closed_kids _ _ C) as K. cbn [kids_of] in K.
  assert (K0 : Forall (closed z) (a ++ set_unbal false n :: b)).
  { apply Forall_mid in K. apply Forall_mid. intuition auto using closed_set_unbal. }
  (* the parent stays materialised ([unb] touches only the unbalanced flag), so it is closed once its children are *)
  destruct (rip_shape _ _ _ _ _ _ _ _ _ _ H) as [_|_|_ _|a1 l0 r0 b1 _ E _]; (split; [|exact M]); [exact C | apply closed_mat; [exact M|]..].
  - exact K0.
  - apply Forall_mid in K. apply Forall_app. tauto.
  - rewrite E in K0. apply Forall_mid in K0. destruct K0 as (Ka & Cl & Kb). apply Forall_cons_iff in Kb.
    apply Forall_mid. intuition auto using closed_merged.
Qed.

Lemma rebalance_root_closed z ps fill t : closed z t -> closed z (fst (rebalance_root ps fill t)).
Proof.
  destruct (rebalance_root_shape ps fill t) as [t|t|h x c0 Hl]; intros C; cbn [fst]; [exact C | now apply closed_set_unbal |].
  rewrite kids_materialize. pose proof (Forall_inv (closed_kids _ _ C)) as Cc.
  inversion C as [t0 A|? ? ? M F]; subst.
  - inversion A as [? ? ? M P FK]; subst. apply Forall_inv in FK. inversion FK; subst. apply closed_page. constructor; auto.
  - apply closed_mat; auto. now apply closed_kids.
Qed.

(** every vertex on the path to a materialised vertex is materialised ([closed_parent_mat]), so every parent that is
    rebuilt on the way up is materialised too *)
Lemma rebalance_at_closed z ps fill fuel t path v t' evs : closed z t -> get_at t path = Some v -> h_mat (hd_of v) = true ->
  rebalance_at ps fill fuel t path = Ok (t', evs) -> closed z t'.
Proof.
  intros C G M H.
  eapply (rebalance_at_down ps fill (fun t path t1 _ _ => closed z t -> (exists v, get_at t path = Some v /\ h_mat (hd_of v) = true) ->
            closed z t1 /\ h_mat (hd_of t1) = true /\ h_mat (hd_of t) = true))
    in H as (t1 & e1 & cont & K & Hf); [destruct (K C (ex_intro _ v (conj G M))) as (C1 & _) | | | exact G].
  - destruct cont; injection Hf as -> _; [now apply rebalance_root_closed | exact C1].
  - intros t0 C0 (v0 & Gv & Mv). injection Gv as <-. auto.
  - intros h ins a c b r c' e cont p' e2 cont2 IH Hs C0 (v0 & Gv & Mv). cbn [get_at kids_of] in Gv. rewrite nth_error_mid in Gv.
    pose proof (closed_kids _ _ C0) as K. cbn [kids_of] in K. apply Forall_mid in K. destruct K as (Ka & Kc & Kb).
    destruct (IH Kc (ex_intro _ v0 (conj Gv Mv))) as (Cc' & _ & Mc).
    assert (Mh : h_mat h = true) by (apply (closed_parent_mat z _ c C0); [apply in_elt | exact Mc]).
    assert (Cp : closed z (NT h ins (a ++ c' :: b))) by (apply closed_mat; [exact Mh | apply Forall_mid; auto]).
    destruct cont; [|injection Hs as <- _ _; auto]. destruct (rip_closed z _ _ _ _ _ _ _ _ _ _ Cp Mh Hs). auto.
Qed.

Lemma rebalance_all_closed z ps fill fuel order t t' evs :
  closed z t -> rebalance_all ps fill fuel t order = Ok (t', evs) -> closed z t'.
Proof.
  apply (rebalance_all_lift ps fill fuel (closed z) (fun _ _ t' => closed z t')); auto.
  intros t0 path v t1 e1 C0 Gv Mv. now apply rebalance_at_closed with v.
Qed.

(** the inner loop of [spill], as a top-level function of the recursive call *)
Section SpillGo.
  Variable leaf : bool.
  Variable sp : nt -> res (list nt * list ev).
  Fixpoint spill_go (ins : list inode) (kids : list nt) : res (list inode * list nt * list ev) :=
    match ins, kids with
    | i :: ir, c :: cr =>
        let? rest := spill_go ir cr in
        let '(ri, rk, re) := rest in
        if h_mat (hd_of c) then
          match ins_of c with [] => Panic | _ :: _ =>
            let? cp := sp c in
            Ok (map (fun p => {| i_flags := 0; i_key := first_key (ins_of p); i_val := []; i_pgid := h_pgid (hd_of p) |}) (fst cp) ++ ri,
                fst cp ++ rk, snd cp ++ re)
          end
        else Ok (i :: ri, c :: rk, re)
    | [], [] => Ok ([], [], [])
    | l, [] => if leaf then Ok (l, [], []) else Panic
    | [], _ :: _ => Panic
    end.
End SpillGo.

Lemma spill_unfold ps fill f h ins kids :
  spill ps fill (S f) (NT h ins kids) =
  if negb (h_mat h) then Ok ([NT h ins kids], []) else
  let? r := spill_go (h_leaf h) (spill ps fill f) ins kids in
  let '(ins', kids', evs) := r in
  let? s := spill_self ps fill h ins' kids' in Ok (fst s, evs ++ snd s).
Proof. reflexivity. Qed.

Definition go_shape (ins : list inode) (kids : list nt) (ins' : list inode) (kids' : list nt) : Prop :=
  (kids = [] -> ins' = ins /\ kids' = []) /\ (length ins = length kids -> length ins' = length kids').

Section SpillLift.
  Variables (ps fill : N) (Pre : nt -> Prop) (F : list nt -> list ev -> list nt -> Prop).
  Hypothesis Pre_kids : forall t, Pre t -> Forall Pre (kids_of t).
  Hypothesis F_nil : F [] [] [].
  Hypothesis F_page : forall c, Pre c -> h_mat (hd_of c) = false -> F [c] [] [c].
  Hypothesis F_cons : forall c cr e1 pcs e2 rk, F [c] e1 pcs -> F cr e2 rk -> F (c :: cr) (e1 ++ e2) (pcs ++ rk).
  Hypothesis F_node : forall h ins kids ins' kids' e pcs e2, Pre (NT h ins kids) -> h_mat h = true ->
    F kids e kids' -> go_shape ins kids ins' kids' -> spill_self ps fill h ins' kids' = Ok (pcs, e2) ->
    F [NT h ins kids] (e ++ e2) pcs.

  Lemma spill_go_lift leaf sp : (forall c r, Pre c -> sp c = Ok r -> F [c] (snd r) (fst r)) ->
    forall ins kids ins' kids' e, Forall Pre kids -> spill_go leaf sp ins kids = Ok (ins', kids', e) ->
    F kids e kids' /\ go_shape ins kids ins' kids'.
  Proof.
    intros Hsp. induction ins as [|i ir IH]; intros [|c cr] ins' kids' e P H; cbn [spill_go] in H; try discriminate.
    - injection H as <- <- <-. repeat split; auto.
    - destruct leaf; [|discriminate]. injection H as <- <- <-. repeat split; auto.
    - apply bind_ok in H. destruct H as ([[ri rk] re] & G & H). apply Forall_cons_iff in P. destruct P as [Pc Pr].
      destruct (IH _ _ _ _ Pr G) as (Fr & _ & L).
      assert (Sh : forall k pcs, length k = length pcs -> go_shape (i :: ir) (c :: cr) (k ++ ri) (pcs ++ rk)).
      { intros k pcs Lk. split; [discriminate|]. cbn [length]. intros E. injection E as E. rewrite !app_length, Lk. auto. }
      destruct (h_mat (hd_of c)) eqn:M.
      + destruct (ins_of c); [discriminate|]. apply bind_ok in H. destruct H as (cp & Sc & H). injection H as <- <- <-.
        split; [exact (F_cons _ _ _ _ _ _ (Hsp _ _ Pc Sc) Fr) | apply Sh, map_length].
      + injection H as <- <- <-. split; [exact (F_cons c cr [] [c] _ _ (F_page _ Pc M) Fr) | exact (Sh [i] [c] eq_refl)].
  Qed.

  Lemma spill_lift : forall fuel t r, Pre t -> spill ps fill fuel t = Ok r -> F [t] (snd r) (fst r).
  Proof.
    induction fuel as [|f IH]; intros t r P H; [discriminate|]. destruct t as [h ins kids]. rewrite spill_unfold in H.
    destruct (h_mat h) eqn:M; cbn [negb] in H. 2:{ injection H as <-. now apply F_page. }
    apply bind_ok in H. destruct H as ([[ins' kids'] e] & G & H). apply bind_ok in H. destruct H as ([pcs e2] & Sp & H).
    injection H as <-. cbn [fst snd]. destruct (spill_go_lift _ _ IH _ _ _ _ _ (Pre_kids _ P) G). eauto.
  Qed.
End SpillLift.

Definition new_root_hdr : nhdr := {| h_mat := true; h_unbal := false; h_pgid := 0; h_ov := 0; h_key := []; h_leaf := false |}.
Definition new_root_ins (pieces : list nt) : list inode :=
  map (fun p => {| i_flags := 0; i_key := first_key (ins_of p); i_val := []; i_pgid := 0 |}) pieces.

Section SpillUpLift.
  Variables (ps fill : N) (U : list nt -> list ev -> Prop).
  Hypothesis U_step : forall pcs e pcs2 e2, U pcs e -> pcs <> [] ->
    spill_self ps fill new_root_hdr (new_root_ins pcs) pcs = Ok (pcs2, e2) -> U pcs2 (e ++ e2).

  Lemma spill_up_lift : forall fuel pcs e t' e', U pcs e -> spill_up ps fill fuel pcs e = Ok (t', e') -> U [t'] e'.
  Proof.
    induction fuel as [|f IH]; intros pcs e t' e' Hu H; [discriminate|].
    cbn [spill_up] in H. destruct pcs as [|p1 [|p2 rest]]; [discriminate| |]. { now injection H as <- <-. }
    apply bind_ok in H. destruct H as ([pcs2 e2] & Sp & H). eapply IH; [|exact H]. eapply U_step; eauto. discriminate.
  Qed.
End SpillUpLift.

Lemma spill_root_cases ps fill fuel t t' e : spill_root ps fill fuel t = Ok (t', e) ->
  (h_mat (hd_of t) = false /\ t' = t /\ e = []) \/
  (h_mat (hd_of t) = true /\ exists pcs e1, spill ps fill fuel t = Ok (pcs, e1) /\ spill_up ps fill fuel pcs e1 = Ok (t', e)).
Proof.
  unfold spill_root. destruct (h_mat (hd_of t)); cbn [negb]; intros H; [right | left; now injection H as <- <-].
  apply bind_ok in H. destruct H as ([pcs e1] & Sp & H). eauto.
Qed.

Lemma cut_like_spec {A} : forall pieces (kids : list A), length (concat pieces) = length kids ->
  concat (cut_like pieces kids) = kids /\ Forall2 (fun p k => length p = length k) pieces (cut_like pieces kids).
Proof.
  induction pieces as [|p r IH]; intros kids L; cbn [concat cut_like] in *.
  - destruct kids; [auto | discriminate].
  - rewrite app_length in L. destruct (IH (skipn (length p) kids)) as [C F]. { rewrite skipn_length. lia. }
    split; [rewrite C; apply firstn_skipn | constructor; auto; rewrite firstn_length; lia].
Qed.

Definition mk_piece ps (leaf : bool) (pk : list inode * list nt) : nt := NT (page_hdr ps leaf (fst pk)) (fst pk) (snd pk).
(** spill_self cuts inodes and kids alike, so it needs as many kids as inodes under a branch *)
Definition fits (h : nhdr) (ins : list inode) (kids : list nt) : Prop := if h_leaf h then kids = [] else length ins = length kids.

Lemma go_shape_fits d h ins kids ins' kids' : wf d (NT h ins kids) -> go_shape ins kids ins' kids' -> fits h ins' kids'.
Proof. intros W [S0 SL]. unfold fits. inversion W as [? ? Hl|? ? ? ? Hl]; subst; rewrite Hl; [now apply S0 | auto]. Qed.
Lemma wf_fits d h ins kids : wf d (NT h ins kids) -> fits h ins kids.
Proof. intros W. apply (go_shape_fits _ _ _ _ _ _ W). split; auto. Qed.

Lemma fits_new_root pcs : fits new_root_hdr (new_root_ins pcs) pcs.
Proof. apply map_length. Qed.

Lemma cut_like_Forall {A} (P : A -> Prop) : forall pieces (kids : list A), Forall P kids -> Forall (Forall P) (cut_like pieces kids).
Proof.
  induction pieces as [|p r IH]; intros kids F; cbn [cut_like]; [constructor|].
  rewrite <- (firstn_skipn (length p) kids) in F. apply Forall_app in F. destruct F. constructor; auto.
Qed.

Lemma spill_self_shape ps fill h ins kids pcs e : spill_self ps fill h ins kids = Ok (pcs, e) ->
  exists pieces kidss, concat pieces = ins /\ (ins <> [] -> Forall (fun q => q <> []) pieces) /\
    (forall P : nt -> Prop, Forall P kids -> Forall (Forall P) kidss) /\
    (fits h ins kids -> Forall2 (fun p k => if h_leaf h then k = [] else length p = length k) pieces kidss /\ concat kidss = kids) /\
    pcs = map (mk_piece ps (h_leaf h)) (combine pieces kidss) /\
    e = (if h_pgid h =? 0 then [] else [EvFree (h_pgid h) (h_ov h)]) ++ map (fun p => EvAlloc (pages_needed (h_leaf h) ps p)) pieces.
Proof.
  intros H. unfold spill_self in H. apply bind_ok in H. destruct H as (pieces & Sp & H). injection H as <- <-.
  pose proof (split_concat _ _ _ _ Sp) as C. pose proof (split_nonempty _ _ _ _ Sp) as Ne. cbn [n_inodes] in C, Ne.
  exists pieces, (if h_leaf h then map (fun _ => []) pieces else cut_like pieces kids).
  split; [exact C|]. split; [exact Ne|]. split; [|split; [|auto]].
  - intros P K. destruct (h_leaf h); [|now apply cut_like_Forall]. clear. induction pieces; constructor; auto.
  - intros Ft. unfold fits in Ft. destruct (h_leaf h).
    + subst kids. split; [clear; induction pieces; cbn [map]; constructor; auto | apply concat_map_nil].
    + destruct (cut_like_spec pieces kids) as [CC F2]; [rewrite C; auto | auto].
Qed.

Definition fkeeps (d : nat) (ks : list nt) (evs : list ev) (ks' : list nt) : Prop :=
  Forall (wf d) ks' /\ flat_map flat ks' = flat_map flat ks /\ acct (flat_map runs ks) evs (flat_map runs ks').

Lemma fkeeps_refl d ks : Forall (wf d) ks -> fkeeps d ks [] ks.
Proof. intros W. repeat split; auto. apply acct_refl. Qed.
Lemma fkeeps_trans d1 d2 ks e1 ks1 e2 ks2 : fkeeps d1 ks e1 ks1 -> fkeeps d2 ks1 e2 ks2 -> fkeeps d2 ks (e1 ++ e2) ks2.
Proof. intros (_ & F1 & A1) (W2 & F2 & A2). repeat split; [auto | congruence | eapply acct_trans; eauto]. Qed.
Lemma fkeeps_app d a e1 a' b e2 b' : fkeeps d a e1 a' -> fkeeps d b e2 b' -> fkeeps d (a ++ b) (e1 ++ e2) (a' ++ b').
Proof.
  unfold fkeeps. rewrite !flat_map_app. intros (W1 & F1 & A1) (W2 & F2 & A2). repeat split; [now apply Forall_app | congruence | now apply acct_app].
Qed.
Lemma fkeeps_one d t e t' : fkeeps d [t] e [t'] <-> keeps d t e t'.
Proof. unfold fkeeps, keeps. cbn [flat_map]. rewrite !app_nil_r, Forall_cons_iff. intuition. Qed.

Lemma mk_pieces_keeps ps leaf d : forall pieces kidss,
  Forall2 (fun p k => wf d (NT (page_hdr ps leaf p) p k)) pieces kidss ->
  Forall (wf d) (map (mk_piece ps leaf) (combine pieces kidss)) /\
  flat_map flat (map (mk_piece ps leaf) (combine pieces kidss)) = (if leaf then concat pieces else flat_map flat (concat kidss)) /\
  flat_map runs (map (mk_piece ps leaf) (combine pieces kidss)) = flat_map runs (concat kidss).
Proof.
  induction 1 as [|p k pieces kidss Hpk _ (IH1 & IH2 & IH3)]; cbn [combine map flat_map concat].
  - repeat split; [constructor | now destruct leaf].
  - repeat split; [constructor; auto| |]; unfold mk_piece at 1; cbn [fst snd].
    + rewrite IH2, flat_eq. cbn [page_hdr h_leaf]. destruct leaf; [reflexivity | now rewrite flat_map_app].
    + now rewrite IH3, runs_eq, flat_map_app.
Qed.

Lemma freed_self h {A} (f : A -> N) l :
  freed ((if h_pgid h =? 0 then [] else [EvFree (h_pgid h) (h_ov h)]) ++ map (fun p => EvAlloc (f p)) l) = ownh h.
Proof. rewrite freed_app. unfold ownh. destruct (h_pgid h =? 0); cbn; induction l; cbn; auto. Qed.

Lemma spill_self_keeps ps fill h ins kids d pcs evs :
  wf d (NT h ins kids) -> spill_self ps fill h ins kids = Ok (pcs, evs) -> fkeeps d [NT h ins kids] evs pcs.
Proof.
  intros W H. destruct (spill_self_shape _ _ _ _ _ _ _ H) as (pieces & kidss & C & _ & _ & Sh & -> & ->).
  destruct (Sh (wf_fits _ _ _ _ W)) as [F2 CK].
  destruct (mk_pieces_keeps ps (h_leaf h) d pieces kidss) as (Wp & Fp & Rp).
  { inversion W as [? ? Hl|d0 ? ? ? Hl Hlen Hk]; subst; rewrite Hl in *.
    - clear -F2. induction F2 as [|p k ? ? ->]; constructor; auto. now constructor.
    - apply Forall_concat in Hk. clear -F2 Hk. induction F2; constructor; inversion Hk; subst; auto. now constructor. }
  unfold fkeeps, acct. cbn [flat_map]. rewrite !app_nil_r, Fp, Rp, flat_eq, runs_eq, freed_self, CK, C. auto.
Qed.

Lemma keeps_spilled_kids d h ins kids ins' kids' e : wf d (NT h ins kids) ->
  (forall d0, Forall (wf d0) kids -> fkeeps d0 kids e kids') -> go_shape ins kids ins' kids' ->
  keeps d (NT h ins kids) e (NT h ins' kids').
Proof.
  intros W Hk [S0 SL]. unfold keeps. rewrite !runs_eq, !flat_eq.
  inversion W as [? ? Hl|d0 ? ? ? Hl Hlen Hw]; subst; rewrite Hl.
  - destruct (S0 eq_refl) as [-> ->]. destruct (Hk 0%nat (Forall_nil _)) as (_ & _ & A).
    repeat split; auto. apply (acct_app _ [] _ _ _ _ (acct_refl _) A).
  - destruct (Hk d0 Hw) as (W' & Fl & A). repeat split; [constructor; auto | exact Fl | apply (acct_app _ [] _ _ _ _ (acct_refl _) A)].
Qed.

Lemma spill_keeps ps fill fuel t d pcs evs : wf d t -> spill ps fill fuel t = Ok (pcs, evs) -> fkeeps d [t] evs pcs.
Proof.
  intros W H.
  refine (spill_lift ps fill (fun _ => True) (fun ks e ks' => forall d, Forall (wf d) ks -> fkeeps d ks e ks')
            _ _ _ _ _ fuel t (pcs, evs) Logic.I H d _); [..|now constructor]; clear.
  - intros t _. now apply Forall_forall.
  - intros d _. apply fkeeps_refl. constructor.
  - intros c _ _ d. apply fkeeps_refl.
  - intros c cr e1 pcs e2 rk H1 H2 d W. apply Forall_cons_iff in W. destruct W. apply (fkeeps_app d [c]); auto.
  - intros h ins kids ins' kids' e pcs e2 _ _ Hk Sh Sp d W. apply Forall_inv in W.
    pose proof (keeps_spilled_kids _ _ _ _ _ _ _ W Hk Sh) as K.
    eapply fkeeps_trans; [apply fkeeps_one, K | eapply spill_self_keeps; [apply K | exact Sp]].
Qed.

Lemma fkeeps_new_root d pcs e pcs2 : fkeeps d [NT new_root_hdr (new_root_ins pcs) pcs] e pcs2 -> fkeeps d pcs e pcs2.
Proof. unfold fkeeps. cbn [flat_map]. now rewrite !app_nil_r. Qed.

Lemma spill_root_keeps ps fill fuel t d t' evs : wf d t -> spill_root ps fill fuel t = Ok (t', evs) -> exists d', keeps d' t evs t'.
Proof.
  intros W H. destruct (spill_root_cases _ _ _ _ _ _ H) as [(_ & -> & ->)|(_ & pcs & e & Sp & Up)]. { exists d. now apply keeps_refl. }
  destruct (spill_up_lift ps fill (fun pcs e => exists d', fkeeps d' [t] e pcs)) with (3 := Up) as [d' K]; [|exists d; eapply spill_keeps; eauto|].
  - intros pcs1 e1 pcs2 e2 [d1 K] _ Sp2. exists (S d1). apply (fkeeps_trans _ _ _ _ _ _ _ K), fkeeps_new_root.
    eapply spill_self_keeps; [|exact Sp2]. constructor; [reflexivity | apply map_length | apply K].
  - exists d'. now apply fkeeps_one.
Qed.

Lemma spill_self_pages ps fill h ins kids pcs evs :
  Forall (allpg false) kids -> spill_self ps fill h ins kids = Ok (pcs, evs) -> Forall (allpg false) pcs.
Proof.
  intros K H. destruct (spill_self_shape _ _ _ _ _ _ _ H) as (pieces & kidss & _ & _ & KK & _ & -> & _).
  apply Forall_forall. intros x Hx. apply in_map_iff in Hx. destruct Hx as ([p k] & <- & Hin).
  apply in_combine_r in Hin. pose proof (KK _ K) as KP. rewrite Forall_forall in KP. constructor; [reflexivity | intros E; discriminate | auto].
Qed.

Lemma spill_root_pages ps fill fuel t t' evs : closed false t -> spill_root ps fill fuel t = Ok (t', evs) -> allpg false t'.
Proof.
  intros C H. destruct (spill_root_cases _ _ _ _ _ _ H) as [(M & -> & _)|(_ & pcs & e & Sp & Up)]. { now apply closed_nonmat. }
  apply Forall_inv with (l := []). refine (spill_up_lift ps fill (fun pcs _ => Forall (allpg false) pcs) _ _ _ _ _ _ _ Up).
  - intros pcs1 _ pcs2 e2 K _. now apply spill_self_pages.
  - refine (spill_lift ps fill (closed false) (fun _ _ ks' => Forall (allpg false) ks') _ _ _ _ _ fuel t _ C Sp); clear.
    + apply closed_kids.
    + constructor.
    + intros c C M. constructor; [now apply closed_nonmat | constructor].
    + intros. now apply Forall_app.
    + intros h ins kids ins' kids' e pcs e2 _ _ K _. now apply spill_self_pages.
Qed.

Fixpoint zeros (t : nt) : list N :=
  match t with NT h _ kids => (if h_pgid h =? 0 then [h_ov h + 1] else []) ++ flat_map zeros kids end.
Lemma zeros_eq h ins kids : zeros (NT h ins kids) = (if h_pgid h =? 0 then [h_ov h + 1] else []) ++ flat_map zeros kids.
Proof. reflexivity. Qed.

Lemma allpg_zeros t : allpg true t -> zeros t = [].
Proof.
  induction t as [h ins kids IH] using nt_ind'. intros A. inversion A as [? ? ? M P FK]; subst.
  rewrite zeros_eq. destruct (N.eqb_spec (h_pgid h) 0) as [E|_]; [exfalso; now apply P|]. cbn [app].
  clear A M P. induction kids as [|c cr IHk]; [reflexivity|]. cbn [flat_map].
  rewrite (Forall_inv IH (Forall_inv FK)). cbn [app]. apply IHk; [now apply Forall_inv_tail in IH | now apply Forall_inv_tail in FK].
Qed.

Lemma pages_needed_pos leaf ps l : 0 < ps -> pages_needed leaf ps l - 1 + 1 = pages_needed leaf ps l.
Proof.
  intros Hps. assert (1 <= pages_needed leaf ps l); [|lia].
  unfold pages_needed. apply N.div_le_lower_bound; [lia|].
  pose proof (size_fold_ge leaf l page_header_size) as Hs. unfold size_of. unfold page_header_size in *. lia.
Qed.

Lemma mk_pieces_zeros ps leaf : 0 < ps -> forall pieces kidss, length pieces = length kidss ->
  Permutation (flat_map zeros (map (mk_piece ps leaf) (combine pieces kidss)))
              (map (pages_needed leaf ps) pieces ++ flat_map zeros (concat kidss)).
Proof.
  intros Hps. induction pieces as [|p r IH]; intros [|k ks] L; cbn [length] in L; try discriminate; [reflexivity|].
  cbn [combine map flat_map concat]. unfold mk_piece at 1. cbn [fst snd]. rewrite zeros_eq. cbn [page_hdr h_pgid h_ov N.eqb].
  rewrite pages_needed_pos, (IH ks), flat_map_app by auto. cbn [app]. apply perm_skip, Permutation_app_swap_app.
Qed.

Lemma allocs_self h {A} (f : A -> N) l :
  allocs ((if h_pgid h =? 0 then [] else [EvFree (h_pgid h) (h_ov h)]) ++ map (fun p => EvAlloc (f p)) l) = map f l.
Proof. rewrite allocs_app. destruct (h_pgid h =? 0); cbn; induction l; cbn; congruence. Qed.

Lemma spill_self_allocs ps fill h ins kids pcs evs : 0 < ps ->
  fits h ins kids -> spill_self ps fill h ins kids = Ok (pcs, evs) ->
  Permutation (allocs evs ++ flat_map zeros kids) (flat_map zeros pcs).
Proof.
  intros Hps Ft H. destruct (spill_self_shape _ _ _ _ _ _ _ H) as (pieces & kidss & _ & _ & _ & Sh & -> & ->).
  destruct (Sh Ft) as [F2 <-]. rewrite allocs_self. symmetry. apply mk_pieces_zeros; [exact Hps | eapply Forall2_length'; eauto].
Qed.

Lemma aligned_kids t : aligned t -> Forall aligned (kids_of t).
Proof. intros [d W]. inversion W; subst; cbn; [constructor|]. eapply Forall_impl; [|eauto]. intros c Wc. now exists d0. Qed.

Lemma spill_root_allocs ps fill fuel t t' evs : 0 < ps -> aligned t -> closed true t ->
  spill_root ps fill fuel t = Ok (t', evs) -> Permutation (allocs evs) (zeros t').
Proof.
  intros Hps A C H. destruct (spill_root_cases _ _ _ _ _ _ H) as [(M & -> & ->)|(_ & pcs & e & Sp & Up)].
  { now rewrite (allpg_zeros _ (closed_nonmat _ _ C M)). }
  rewrite <- (app_nil_r (zeros t')). refine (spill_up_lift ps fill (fun pcs e => Permutation (allocs e) (flat_map zeros pcs)) _ _ _ _ _ _ _ Up).
  - intros pcs1 e1 pcs2 e2 HP _ Sp2. rewrite allocs_app, HP, Permutation_app_comm.
    exact (spill_self_allocs _ _ _ _ _ _ _ Hps (fits_new_root pcs1) Sp2).
  - refine (spill_lift ps fill (fun t => aligned t /\ closed true t) (fun _ e ks' => Permutation (allocs e) (flat_map zeros ks'))
              _ _ _ _ _ fuel t _ (conj A C) Sp); clear -Hps.
    + intros t [A C]. pose proof (aligned_kids _ A) as Ak. pose proof (closed_kids _ _ C) as Ck.
      rewrite Forall_forall in *. auto.
    + reflexivity.
    + intros c [_ C] M. cbn [flat_map]. now rewrite (allpg_zeros _ (closed_nonmat _ _ C M)).
    + intros c cr e1 pcs e2 rk H1 H2. rewrite allocs_app, flat_map_app. now apply Permutation_app.
    + intros h ins kids ins' kids' e pcs e2 [[d W] _] _ HP Sh Sp. rewrite allocs_app, HP, Permutation_app_comm.
      eapply spill_self_allocs; [exact Hps | eapply go_shape_fits; eauto | exact Sp].
Qed.

Lemma commit_tree_cases ps fill fuel t order t' evs : commit_tree ps fill fuel t order = Ok (t', evs) ->
  exists r e1 e2, rebalance_all ps fill fuel t order = Ok (r, e1) /\ spill_root ps fill fuel r = Ok (t', e2) /\ evs = e1 ++ e2.
Proof.
  intros H. unfold commit_tree in H. apply bind_ok in H. destruct H as ([r e1] & R & H).
  apply bind_ok in H. destruct H as ([t2 e2] & Sp & H). injection H as <- <-. eauto 6.
Qed.

Lemma commit_tree_keeps ps fill fuel t order t' evs d :
  wf d t -> commit_tree ps fill fuel t order = Ok (t', evs) -> exists d', keeps d' t evs t'.
Proof.
  intros W H. destruct (commit_tree_cases _ _ _ _ _ _ _ H) as (r & e1 & e2 & R & Sp & ->).
  destruct (rebalance_all_keeps _ _ _ _ _ _ _ R d W) as (d1 & _ & K1).
  destruct (spill_root_keeps _ _ _ _ _ _ _ (proj1 K1) Sp) as (d2 & K2). exists d2. eapply keeps_trans; eauto.
Qed.

(** P1: the commit keeps the content, for every visit order, page size and fill percentage *)
Theorem commit_tree_flat ps fill fuel t order t' evs :
  aligned t -> commit_tree ps fill fuel t order = Ok (t', evs) -> flat t' = flat t /\ aligned t'.
Proof. intros [d W] H. destruct (commit_tree_keeps _ _ _ _ _ _ _ _ W H) as (d' & W' & F & _). split; [exact F | exists d'; exact W']. Qed.
Print Assumptions commit_tree_flat.

(** P2, pages freed and kept: as multisets, the page runs of the old tree are the freed runs plus the page runs of the new tree *)
Theorem commit_tree_runs ps fill fuel t order t' evs :
  aligned t -> commit_tree ps fill fuel t order = Ok (t', evs) -> Permutation (runs t) (freed evs ++ runs t').
Proof. intros [d W] H. destruct (commit_tree_keeps _ _ _ _ _ _ _ _ W H) as (d' & _ & _ & A). exact A. Qed.
Print Assumptions commit_tree_runs.

Theorem commit_tree_frees ps fill fuel t order t' evs :
  aligned t -> NoDup (ids t) -> commit_tree ps fill fuel t order = Ok (t', evs) ->
  (forall p ov, In (EvFree p ov) evs -> In (p, ov) (runs t)) /\
  NoDup (map fst (freed evs)) /\
  NoDup (ids t') /\
  (forall x, In x (ids t') <-> In x (ids t) /\ ~ In x (map fst (freed evs))).
Proof. intros A ND H. apply acct_frees; [eapply commit_tree_runs; eauto | exact ND]. Qed.
Print Assumptions commit_tree_frees.

(** P3: if the materialised vertices of t are closed under taking the parent (so also if t has pages only), every vertex
    of the committed tree is a page *)
Theorem commit_tree_pages ps fill fuel t order t' evs :
  closed false t -> commit_tree ps fill fuel t order = Ok (t', evs) -> allpg false t'.
Proof.
  intros C H. destruct (commit_tree_cases _ _ _ _ _ _ _ H) as (r & e1 & e2 & R & Sp & _).
  eapply spill_root_pages; [|exact Sp]. eapply rebalance_all_closed; eauto.
Qed.
Print Assumptions commit_tree_pages.

(** P2, pages allocated.  Beyond P1's hypotheses: the page size is not 0 (otherwise pages_needed = 0 and h_ov + 1 = 1), and
    every PAGE of t has a page id <> 0 (a page with id 0 that nobody spills would count as "new" without an allocation). *)
Theorem commit_tree_allocs ps fill fuel t order t' evs :
  0 < ps -> aligned t -> closed true t -> commit_tree ps fill fuel t order = Ok (t', evs) ->
  Permutation (allocs evs) (zeros t').
Proof.
  intros Hps [d W] C H. destruct (commit_tree_cases _ _ _ _ _ _ _ H) as (r & e1 & e2 & R & Sp & ->).
  destruct (rebalance_all_keeps _ _ _ _ _ _ _ R d W) as (d1 & _ & W1 & _).
  rewrite allocs_app, (rebalance_all_allocs _ _ _ _ _ _ _ R). cbn [app].
  eapply spill_root_allocs; [exact Hps | exists d1; exact W1 | eapply rebalance_all_closed; eauto | exact Sp].
Qed.
Print Assumptions commit_tree_allocs.

Corollary commit_tree_alloc_count ps fill fuel t order t' evs :
  0 < ps -> aligned t -> closed true t -> commit_tree ps fill fuel t order = Ok (t', evs) ->
  length (allocs evs) = length (zeros t').
Proof. intros. eapply Permutation_length. eapply commit_tree_allocs; eauto. Qed.

Lemma fuel_ind (P : nat -> nt -> Prop) :
  (forall f t d, wf d t -> (d <= f)%nat -> Forall (P f) (kids_of t) -> P (S f) t) ->
  forall fuel t d, wf d t -> (d < fuel)%nat -> P fuel t.
Proof.
  intros Hs. induction fuel as [|f IH]; intros t d W L; [lia|]. apply (Hs f t d W); [lia|].
  inversion W as [|d0 ? ? ? _ _ Hk]; subst; cbn [kids_of]; [constructor|]. eapply Forall_impl; [|exact Hk]. intros c Wc. apply (IH c d0 Wc). lia.
Qed.

Lemma flatten_flat : forall fuel t d, wf d t -> (d < fuel)%nat -> flatten fuel t = flat t.
Proof.
  apply (fuel_ind (fun f t => flatten f t = flat t)). intros f [h ins kids] d W _ IH. cbn [flatten hd_of ins_of kids_of] in *.
  rewrite flat_eq. destruct (h_leaf h); [reflexivity | now apply flat_map_Forall_ext].
Qed.

Lemma page_runs_runs : forall fuel t d, wf d t -> (d < fuel)%nat -> page_runs fuel t = runs t.
Proof.
  apply (fuel_ind (fun f t => page_runs f t = runs t)). intros f [h ins kids] d W _ IH. cbn [page_runs hd_of kids_of] in *.
  rewrite runs_eq. unfold ownh. f_equal. now apply flat_map_Forall_ext.
Qed.

(** P1 over the fuelled [flatten] of Tree.v; [page_runs_runs] does the same for the page runs of P2 *)
Corollary commit_tree_flatten ps fill fuel t order t' evs d :
  wf d t -> commit_tree ps fill fuel t order = Ok (t', evs) ->
  exists d', wf d' t' /\ forall f1 f2, (d < f1)%nat -> (d' < f2)%nat -> flatten f2 t' = flatten f1 t.
Proof.
  intros W H. destruct (commit_tree_flat _ _ _ _ _ _ _ (ex_intro _ d W) H) as [F [d' W']].
  exists d'. split; auto. intros f1 f2 L1 L2. rewrite (flatten_flat _ _ _ W' L2), (flatten_flat _ _ _ W L1). exact F.
Qed.

Definition inline_hdr : nhdr := {| h_mat := false; h_unbal := false; h_pgid := 0; h_ov := 0; h_key := []; h_leaf := true |}.

Definition wb (fuel : nat) (children : list (bytes * bytes)) (a : res nt) : res nt :=
  fold_left (fun (a : res nt) kv => let? a' := a in put_at_key fuel a' (fst kv) (snd kv) bucket_leaf_flag) children a.

Inductive written (ps fill : N) (fuel : nat) (r : nt) : nt -> list ev -> bool -> Prop :=
| wr_inline : inlineable ps r = true ->
    written ps fill fuel r (NT inline_hdr (ins_of r) []) (if h_pgid (hd_of r) =? 0 then [] else free_all fuel r) true
| wr_spill t' e : inlineable ps r = false -> spill_root ps fill fuel r = Ok (t', e) -> written ps fill fuel r t' e false.

Lemma commit_parent_bucket_cases ps fill fuel t order children t' evs inl :
  commit_parent_bucket ps fill fuel t order children = Ok (t', evs, inl) ->
  (h_mat (hd_of t) = false /\ children = [] /\ t' = t /\ evs = [] /\ inl = (h_pgid (hd_of t) =? 0)) \/
  exists r e1 t2 e2, rebalance_all ps fill fuel t order = Ok (r, e1) /\ wb fuel children (Ok r) = Ok t2 /\
    written ps fill fuel t2 t' e2 inl /\ evs = e1 ++ e2.
Proof.
  intros H. unfold commit_parent_bucket in H. fold (wb fuel children) in H.
  destruct (negb (h_mat (hd_of t)) && match children with [] => true | _ :: _ => false end) eqn:E.
  { left. apply andb_true_iff in E. destruct E as [E1 E2]. apply negb_true_iff in E1.
    injection H as <- <- <-. destruct children; [auto 6 | discriminate]. }
  right. apply bind_ok in H. destruct H as ([r e1] & R & H). cbn [fst snd] in H. apply bind_ok in H. destruct H as (t2 & Wb & H).
  exists r, e1, t2. destruct (inlineable ps t2) eqn:In.
  - injection H as <- <- <-. eexists. repeat split; eauto. now constructor.
  - apply bind_ok in H. destruct H as ([t3 e2] & Sp & H). injection H as <- <- <-. exists e2. repeat split; auto. now constructor.
Qed.

Lemma commit_bucket_parent ps fill fuel t order : commit_parent_bucket ps fill fuel t order [] = commit_bucket ps fill fuel t order.
Proof. unfold commit_parent_bucket, commit_bucket. destruct (h_mat (hd_of t)); reflexivity. Qed.

Lemma commit_bucket_cases ps fill fuel t order t' evs inl :
  commit_bucket ps fill fuel t order = Ok (t', evs, inl) ->
  (h_mat (hd_of t) = false /\ t' = t /\ evs = [] /\ inl = (h_pgid (hd_of t) =? 0)) \/
  exists r e1 e2, rebalance_all ps fill fuel t order = Ok (r, e1) /\ written ps fill fuel r t' e2 inl /\ evs = e1 ++ e2.
Proof.
  rewrite <- commit_bucket_parent. intros H.
  destruct (commit_parent_bucket_cases _ _ _ _ _ _ _ _ _ H) as [(M & _ & E)|(r & e1 & t2 & e2 & R & Wb & Wr)]; [auto|].
  injection Wb as <-. eauto 6.
Qed.

Lemma inlineable_leaf ps r : inlineable ps r = true -> h_mat (hd_of r) = true /\ h_leaf (hd_of r) = true.
Proof. unfold inlineable. intros H. apply andb_true_iff in H. destruct H as [H _]. now apply andb_true_iff in H. Qed.

Lemma free_all_runs : forall fuel t d, wf d t -> (d < fuel)%nat -> freed (free_all fuel t) = runs t.
Proof.
  apply (fuel_ind (fun f t => freed (free_all f t) = runs t)). intros f t d W _ IH. cbn [free_all].
  rewrite freed_app, freed_free_ev, runs_hd_kids. f_equal.
  induction IH as [|c l E _ IHl]; cbn [flat_map]; [reflexivity|]. now rewrite freed_app, E, IHl.
Qed.

(** the accounting needs 0 < fuel: the inlined tree is a single leaf of height 0, [free_all 0] frees nothing, and
    [rebalance_all 0] can still answer Ok because [find_node 0] finds nothing *)
Lemma written_keeps ps fill fuel r t' e inl d : wf d r -> written ps fill fuel r t' e inl ->
  aligned t' /\ flat t' = flat r /\ ((0 < fuel)%nat -> acct (runs r) e (runs t')).
Proof.
  intros W [In|t2 e2 _ Sp].
  - destruct (inlineable_leaf _ _ In) as [_ L]. destruct (wf_leaf_inv _ _ W L) as (-> & K & E).
    split; [exists 0%nat; now constructor|]. split; [now rewrite E|]. intros Hf. unfold acct. cbn [runs ownh inline_hdr h_pgid N.eqb flat_map app].
    rewrite app_nil_r. destruct (h_pgid (hd_of r) =? 0) eqn:Z; [|now rewrite (free_all_runs fuel r 0%nat W Hf)].
    rewrite runs_hd_kids, K. unfold ownh. now rewrite Z.
  - destruct (spill_root_keeps _ _ _ _ _ _ _ W Sp) as (d' & W' & F & A). split; [exists d'|]; auto.
Qed.

Lemma written_pages ps fill fuel r t' e inl : closed false r -> written ps fill fuel r t' e inl -> allpg false t'.
Proof.
  intros C [In|t2 e2 _ Sp]; [|eapply spill_root_pages; eauto]. constructor; [reflexivity | intros E; discriminate | constructor].
Qed.

(** Q1: the content is kept whether the bucket is written as pages or inline *)
Theorem commit_bucket_flat ps fill fuel t order t' evs inl :
  aligned t -> commit_bucket ps fill fuel t order = Ok (t', evs, inl) -> flat t' = flat t /\ aligned t'.
Proof.
  intros [d W] H. destruct (commit_bucket_cases _ _ _ _ _ _ _ _ H) as [(_ & -> & _)|(r & e1 & e2 & R & Wr & _)].
  - split; [auto | exists d; auto].
  - destruct (rebalance_all_keeps _ _ _ _ _ _ _ R d W) as (d1 & _ & W1 & F1 & _).
    destruct (written_keeps _ _ _ _ _ _ _ _ W1 Wr) as (A2 & F2 & _). split; [congruence | auto].
Qed.
Print Assumptions commit_bucket_flat.

(** when the root is materialised, inl = true means: one unpaged leaf (pgid 0, no kids, not materialised).
    (When the root is NOT materialised the bucket is not written: t' = t and inl only reports whether its pgid is 0.) *)
Theorem commit_bucket_inline ps fill fuel t order t' evs :
  h_mat (hd_of t) = true -> commit_bucket ps fill fuel t order = Ok (t', evs, true) ->
  exists ins, t' = NT inline_hdr ins [] /\ runs t' = [] /\ allpg false t'.
Proof.
  intros M H. destruct (commit_bucket_cases _ _ _ _ _ _ _ _ H) as [(M' & _)|(r & e1 & e2 & R & Wr & _)]; [congruence|].
  inversion Wr; subst. eexists. split; [reflexivity|]. split; [reflexivity|]. constructor; auto. intros E; discriminate.
Qed.

(** Q2: the page accounting of [commit_tree_runs], also when the bucket ends up inline *)
Theorem commit_bucket_runs ps fill fuel t order t' evs inl :
  (0 < fuel)%nat -> aligned t -> commit_bucket ps fill fuel t order = Ok (t', evs, inl) ->
  Permutation (runs t) (freed evs ++ runs t').
Proof.
  intros Hf [d W] H. destruct (commit_bucket_cases _ _ _ _ _ _ _ _ H) as [(_ & -> & -> & _)|(r & e1 & e2 & R & Wr & ->)]; [reflexivity|].
  destruct (rebalance_all_keeps _ _ _ _ _ _ _ R d W) as (d1 & _ & W1 & _ & A1).
  destruct (written_keeps _ _ _ _ _ _ _ _ W1 Wr) as (_ & _ & A2). exact (acct_trans _ _ _ _ _ A1 (A2 Hf)).
Qed.
Print Assumptions commit_bucket_runs.

Theorem commit_bucket_frees ps fill fuel t order t' evs inl :
  (0 < fuel)%nat -> aligned t -> NoDup (ids t) -> commit_bucket ps fill fuel t order = Ok (t', evs, inl) ->
  (forall p ov, In (EvFree p ov) evs -> In (p, ov) (runs t)) /\
  NoDup (map fst (freed evs)) /\
  NoDup (ids t') /\
  (forall x, In x (ids t') <-> In x (ids t) /\ ~ In x (map fst (freed evs))).
Proof. intros Hf A ND H. apply acct_frees; [eapply commit_bucket_runs; eauto | exact ND]. Qed.
Print Assumptions commit_bucket_frees.

(** the invariant of P4 while [rest] is still to be visited: a non-root vertex without inodes is materialised, unbalanced,
    and its non-zero page id is in [rest].  [good [] t]: no non-root vertex of t is empty. *)
Definition okv (rest : list N) (c : nt) : Prop :=
  ins_of c = [] -> h_mat (hd_of c) = true /\ h_unbal (hd_of c) = true /\ h_pgid (hd_of c) <> 0 /\ In (h_pgid (hd_of c)) rest.
Inductive allgood (rest : list N) : nt -> Prop :=
| ag_i c : okv rest c -> Forall (allgood rest) (kids_of c) -> allgood rest c.
Definition good (rest : list N) (t : nt) : Prop := Forall (allgood rest) (kids_of t).

Lemma ag_okv rest c : allgood rest c -> okv rest c.
Proof. now inversion 1. Qed.
Lemma ag_kids rest c : allgood rest c -> Forall (allgood rest) (kids_of c).
Proof. now inversion 1. Qed.
Lemma ag_nil_ne c : allgood [] c -> ins_of c <> [].
Proof. intros A E. destruct (ag_okv _ _ A E) as (_ & _ & _ & []). Qed.
Lemma ag_nonempty rest c : ins_of c <> [] -> Forall (allgood rest) (kids_of c) -> allgood rest c.
Proof. intros Ne K. constructor; auto. intros E. contradiction. Qed.

Lemma spill_self_ne ps fill h ins kids pcs evs :
  fits h ins kids -> ins <> [] -> Forall (allgood []) kids -> spill_self ps fill h ins kids = Ok (pcs, evs) ->
  Forall (allgood []) pcs /\ pcs <> [].
Proof.
  intros Ft Ne K H. destruct (spill_self_shape _ _ _ _ _ _ _ H) as (pieces & kidss & C & PN & KK & Sh & -> & _).
  destruct (Sh Ft) as [F2 _]. apply Forall2_length' in F2. specialize (PN Ne). specialize (KK _ K). split.
  - apply Forall_forall. intros x Hx. apply in_map_iff in Hx. destruct Hx as ([p k] & <- & Hin). cbn [fst snd].
    pose proof (in_combine_l _ _ _ _ Hin) as Hp. apply in_combine_r in Hin. rewrite Forall_forall in KK, PN.
    apply ag_nonempty; cbn [ins_of kids_of]; auto.
  - destruct pieces as [|p0 pr]; [cbn in C; congruence|]. destruct kidss; discriminate.
Qed.

Lemma spill_self_empty ps fill h pcs evs : spill_self ps fill h [] [] = Ok (pcs, evs) -> exists h', pcs = [NT h' [] []].
Proof.
  unfold spill_self. rewrite (split_small _ ps fill) by (cbn; lia). cbn [bindr n_inodes].
  intros H. injection H as <- _. destruct (h_leaf h); cbn; eauto.
Qed.

Theorem spill_root_ne ps fill fuel t d t' evs :
  wf d t -> good [] t -> spill_root ps fill fuel t = Ok (t', evs) -> good [] t'.
Proof.
  intros W G H. destruct (spill_root_cases _ _ _ _ _ _ H) as [(_ & -> & _)|(M & pcs & e & Sp & Up)]; [exact G|].
  destruct (ins_of t) as [|x xs] eqn:Ei.
  - destruct (wf_empty _ _ W Ei) as [K _]. destruct t as [h ins kids]. cbn in Ei, K, M. subst ins kids.
    destruct fuel as [|f]; [discriminate|]. rewrite spill_unfold, M in Sp. cbn [negb spill_go bindr] in Sp.
    apply bind_ok in Sp. destruct Sp as ([pcs0 e0] & Ss & Sp). injection Sp as <- <-.
    destruct (spill_self_empty _ _ _ _ _ Ss) as (h' & ->). cbn [spill_up] in Up. injection Up as <- _. constructor.
  - apply ag_kids, Forall_inv with (l := []). refine (spill_up_lift ps fill (fun pcs _ => Forall (allgood []) pcs) _ _ _ _ _ _ _ Up).
    { intros pcs1 _ pcs2 e2 FA1 Ne Sp2. apply (spill_self_ne _ _ _ _ _ _ _ (fits_new_root pcs1)) in Sp2; [apply Sp2 | | exact FA1].
      destruct pcs1; [congruence | discriminate]. }
    refine (proj1 (spill_lift ps fill (fun c => aligned c /\ allgood [] c) (fun ks _ ks' => Forall (allgood []) ks' /\ (ks <> [] -> ks' <> []))
                     _ _ _ _ _ fuel t _ _ Sp)); [clear..|].
    + intros c [A Ag]. pose proof (aligned_kids _ A) as Ak. pose proof (ag_kids _ _ Ag) as Gk. rewrite Forall_forall in *. auto.
    + auto.
    + intros c [_ Ag] _. split; [auto | discriminate].
    + intros c cr e1 pcs e2 rk [F1 N1] [F2 _]. split; [now apply Forall_app|]. intros _ E. apply app_eq_nil in E. now apply N1.
    + intros h ins kids ins' kids' e pcs e2 [[d W] Ag] _ [FK NK] Sh Sp.
      cut (ins' <> []). { intros Ne'. destruct (spill_self_ne _ _ _ _ _ _ _ (go_shape_fits _ _ _ _ _ _ W Sh) Ne' FK Sp). auto. }
      apply ag_nil_ne in Ag. cbn [ins_of] in Ag. destruct Sh as [S0 SL]. inversion W as [|d0 ? ? ? _ Hlen _]; subst.
      * now destruct (S0 eq_refl) as [-> _].
      * intros ->. specialize (SL Hlen). destruct kids' ; [|discriminate]. destruct kids; [destruct ins; [congruence|discriminate] | now apply NK].
    + split; [exists d; exact W | apply ag_nonempty; [rewrite Ei; discriminate | exact G]].
Qed.

Lemma find_go_none fn : forall ks i, find_go fn i ks = None -> Forall (fun c => h_mat (hd_of c) = true -> fn c = None) ks.
Proof.
  induction ks as [|c r IH]; intros i H; cbn in H; [constructor|].
  destruct (h_mat (hd_of c)) eqn:M.
  - destruct (fn c) eqn:E; [discriminate|]. constructor; eauto.
  - constructor; eauto. congruence.
Qed.

(** a visit that finds no node: among the materialised vertices, which are all that find_node searches, none carries that
    page id, and below a page nothing waits for a visit at all *)
Lemma not_found_good pg rest : forall fuel t d, wf d t -> (d < fuel)%nat -> closed false t ->
  (h_mat (hd_of t) = true -> find_node fuel t pg = None) -> good (pg :: rest) t -> good rest t.
Proof.
  apply (fuel_ind (fun f t => closed false t -> (h_mat (hd_of t) = true -> find_node f t pg = None) -> good (pg :: rest) t -> good rest t)).
  unfold good. intros f t d W L IH C Fn G.
  assert (Fk : Forall (fun c => h_mat (hd_of c) = true -> find_node f c pg = None) (kids_of t)).
  { destruct (h_mat (hd_of t)) eqn:M.
    - specialize (Fn eq_refl). rewrite find_node_unfold, M in Fn. destruct (_ =? _); [discriminate|]. now apply find_go_none in Fn.
    - apply Forall_forall. intros c Hc Mc. rewrite (closed_parent_mat _ _ _ C Hc Mc) in M. discriminate. }
  pose proof (closed_kids _ _ C) as Ck. rewrite Forall_forall in *. intros c Hc. specialize (Fk c Hc). constructor; [|apply IH; auto; apply ag_kids; auto].
  intros E. destruct (ag_okv _ _ (G c Hc) E) as (M & U & Z & [Ep|Hin]); auto. specialize (Fk M).
  destruct f as [|f']. { inversion W; subst; [destruct Hc | inversion L]. }
  rewrite find_node_unfold, M, <- Ep, N.eqb_refl in Fk. discriminate.
Qed.

Lemma ids_eq h ins kids : ids (NT h ins kids) = map fst (ownh h) ++ flat_map ids kids.
Proof.
  unfold ids. rewrite runs_eq, map_app. f_equal. induction kids as [|c r IH]; cbn [flat_map map]; [reflexivity|].
  now rewrite map_app, IH.
Qed.
Lemma ids_own t : h_pgid (hd_of t) <> 0 -> In (h_pgid (hd_of t)) (ids t).
Proof.
  destruct t as [h i k]. cbn [hd_of]. intros Z. rewrite ids_eq. apply in_or_app. left. unfold ownh.
  destruct (N.eqb_spec (h_pgid h) 0); [contradiction | now left].
Qed.
Lemma ids_kid t c x : In c (kids_of t) -> In x (ids c) -> In x (ids t).
Proof. destruct t as [h i k]. cbn [kids_of]. intros Hc Hx. rewrite ids_eq. apply in_or_app. right. apply in_flat_map. eauto. Qed.
Lemma get_at_in_ids : forall r c v, get_at c r = Some v -> h_pgid (hd_of v) <> 0 -> In (h_pgid (hd_of v)) (ids c).
Proof.
  induction r as [|j r IH]; intros c v G Z; cbn in G.
  - injection G as <-. now apply ids_own.
  - destruct (nth_error (kids_of c) j) as [c'|] eqn:E; [|discriminate]. eapply ids_kid; [eapply nth_error_In; eauto | eauto].
Qed.

(** a visit that finds its node: page ids are pairwise distinct, so nothing else waits for this visit *)
Lemma ag_weaken_ids pg rest : forall c, allgood (pg :: rest) c -> (pg <> 0 -> ~ In pg (ids c)) -> allgood rest c.
Proof.
  induction c as [h ins kids IH] using nt_ind'. intros A Hn. constructor.
  - intros E. destruct (ag_okv _ _ A E) as (M & U & Z & [Ep|Hin]); auto. subst pg. destruct (Hn Z). now apply ids_own.
  - apply ag_kids in A. cbn [kids_of] in *. rewrite Forall_forall in *. intros k Hk. apply IH; auto.
    intros Z Hin. apply (Hn Z). eapply (ids_kid (NT h ins kids)); eauto.
Qed.

Lemma nodup_flat_map_mid {A B} (f : A -> list B) a c b : NoDup (flat_map f (a ++ c :: b)) ->
  NoDup (f c) /\ forall s x, In s (a ++ b) -> In x (f c) -> ~ In x (f s).
Proof.
  rewrite flat_map_mid. intros ND. destruct (proj1 (NoDup_app_iff _ _) ND) as (_ & ND2 & D1).
  destruct (proj1 (NoDup_app_iff _ _) ND2) as (Nc & _ & D2). split; [exact Nc|].
  intros s x Hs Hc Hx. apply in_app_or in Hs. destruct Hs as [Hs|Hs].
  - apply (D1 x); [apply in_flat_map; eauto | apply in_or_app; auto].
  - apply (D2 x Hc). apply in_flat_map; eauto.
Qed.

Lemma get_at_ag R : forall path c v, allgood R c -> get_at c path = Some v -> allgood R v.
Proof.
  induction path as [|j r IH]; intros c v A G; cbn in G; [now injection G as <-|].
  destruct (nth_error (kids_of c) j) as [c'|] eqn:E; [|discriminate].
  apply (IH c'); auto. exact (Forall_nth_error _ _ _ _ (ag_kids _ _ A) E).
Qed.

Lemma ag_set_unbal rest b c : ins_of c <> [] -> Forall (allgood rest) (kids_of c) -> allgood rest (set_unbal b c).
Proof. intros Ne K. apply ag_nonempty; [now rewrite ins_set_unbal | now rewrite kids_set_unbal]. Qed.
Lemma ag_merged rest l0 r0 : allgood rest l0 -> allgood rest r0 -> allgood rest (merged l0 r0).
Proof.
  intros Al Ar. constructor.
  - intros E. unfold merged in *. cbn [ins_of hd_of] in *. apply app_eq_nil in E. destruct E as [E _].
    rewrite ins_materialize in E. destruct (ag_okv _ _ Al E) as (M & U). now rewrite (materialize_mat _ M).
  - unfold merged. cbn [kids_of]. rewrite !kids_materialize. apply Forall_app. split; now apply ag_kids.
Qed.

Lemma rebalance_root_good ps fill rest t : good rest t -> good rest (fst (rebalance_root ps fill t)).
Proof.
  unfold good. destruct (rebalance_root_shape ps fill t) as [t|t|h x c0 _]; intros G; cbn [fst]; [exact G | now rewrite kids_set_unbal |].
  cbn [kids_of] in *. rewrite kids_materialize. apply ag_kids. now apply Forall_inv in G.
Qed.

(** [P4_up pg rest t path t1 cont]: the climb to the only vertex [v] with page id [pg], inside a subtree [t] that is good
    while [pg :: rest] is still to be visited.  What hangs off the path does not wait for [pg], so it is good for [rest]
    already, and the steps keep that.  The root of the result is not empty if the climb has stopped below it; if it is
    next and empty, it is marked unbalanced, so it will be removed - for [v] itself that is a premise. *)
Definition P4_up (pg : N) (rest : list N) (t : nt) (path : list nat) (t1 : nt) (cont : bool) : Prop :=
  forall d v, wf d t -> NoDup (ids t) -> Forall (allgood (pg :: rest)) (kids_of t) -> get_at t path = Some v -> h_pgid (hd_of v) = pg ->
  Forall (allgood rest) (kids_of t1) /\
  if cont then (ins_of v = [] -> h_unbal (hd_of v) = true) -> ins_of t1 = [] -> h_unbal (hd_of t1) = true else ins_of t1 <> [].

Lemma rebalance_at_good ps fill pg rest fuel t path t' evs d v :
  wf d t -> NoDup (ids t) -> good (pg :: rest) t -> get_at t path = Some v -> h_pgid (hd_of v) = pg ->
  rebalance_at ps fill fuel t path = Ok (t', evs) -> good rest t'.
Proof.
  intros W ND G Gv Ev H.
  eapply (rebalance_at_down ps fill (fun t path t1 _ cont => P4_up pg rest t path t1 cont)) in H as (t1 & e1 & cont & K & Hf); [|clear..|exact Gv].
  - destruct (K d v W ND G Gv Ev) as [K1 _]. destruct cont; injection Hf as -> _; [now apply rebalance_root_good | exact K1].
  - intros [h ins kids] d0 v0 _ ND K G Ev. injection G as <-. split; [|auto]. cbn [kids_of hd_of] in *. rewrite ids_eq in ND.
    destruct (proj1 (NoDup_app_iff _ _) ND) as (_ & _ & D). rewrite Forall_forall in *. intros c Hc. apply (ag_weaken_ids pg); auto. intros Z Hin.
    apply (D pg); [|apply in_flat_map; eauto]. unfold ownh. subst pg. destruct (N.eqb_spec (h_pgid h) 0); [contradiction | now left].
  - intros h ins a c b r c' e cont p' e2 cont2 IH Hs d0 v0 W ND K G Ev. cbn [get_at kids_of] in G, K. rewrite nth_error_mid in G.
    destruct (wf_kids _ _ _ _ _ _ W) as (d1 & _ & _ & Hlen & _ & Wc & _).
    rewrite ids_eq in ND. destruct (proj1 (NoDup_app_iff _ _) ND) as (_ & ND2 & _). destruct (nodup_flat_map_mid ids a c b ND2) as [Nc Dj].
    apply Forall_mid in K. destruct K as (Ka & Kc & Kb). destruct (IH d1 v0 Wc Nc (ag_kids _ _ Kc) G Ev) as [Fc' Hc'].
    assert (Fab : Forall (allgood rest) a /\ Forall (allgood rest) b).
    { apply Forall_app. assert (Kab : Forall (allgood (pg :: rest)) (a ++ b)) by (apply Forall_app; auto).
      rewrite Forall_forall in *. intros s Hs0. apply (ag_weaken_ids pg); auto. intros Z.
      apply (Dj s pg Hs0). subst pg. eapply get_at_in_ids; eauto. }
    assert (Stop : forall u', allgood rest u' -> Forall (allgood rest) (a ++ u' :: b) /\ ins <> []).
    { intros u' Au. split; [apply Forall_mid; tauto|]. intros ->. destruct a; discriminate. }
    destruct cont. 2:{ injection Hs as <- _ <-. apply Stop. now apply ag_nonempty. }
    specialize (Hc' (fun E0 => proj1 (proj2 (ag_okv _ _ (get_at_ag _ _ _ _ Kc G) E0)))).
    destruct (rip_shape _ _ _ _ _ _ _ _ _ _ Hs) as [Hnu|Nn|Ei _|a1 l0 r1 b1 Nn E2 _]; cbn [kids_of ins_of hd_of].
    + apply Stop. apply ag_nonempty; auto. intros E0. rewrite (Hc' E0) in Hnu. discriminate.
    + apply Stop. now apply ag_set_unbal.
    + split; [now apply Forall_app | reflexivity].
    + split; [|reflexivity]. destruct (Stop (set_unbal false c') (ag_set_unbal _ _ _ Nn Fc')) as [F1 _].
      rewrite E2 in F1. apply Forall_mid in F1. destruct F1 as (Fa1 & Al & Fb1). apply Forall_cons_iff in Fb1.
      apply Forall_mid. intuition auto using ag_merged.
Qed.

Lemma rebalance_all_good ps fill fuel : forall order t d t' evs,
  wf d t -> (d < fuel)%nat -> closed false t -> NoDup (ids t) -> good order t ->
  rebalance_all ps fill fuel t order = Ok (t', evs) -> good [] t'.
Proof.
  induction order as [|pg rest IH]; intros t d t' evs W L C ND G H; cbn [rebalance_all] in H. { now injection H as <- _. }
  destruct (find_node fuel t pg) as [path|] eqn:Fn.
  - destruct (find_node_sound _ _ _ _ Fn) as (v & Gv & Mv & Ev).
    apply bind_ok in H. destruct H as ([t1 e1] & R & H). apply bind_ok in H. destruct H as ([t2 e2] & R2 & H). injection H as <- _.
    destruct (rebalance_at_keeps _ _ _ _ _ _ _ _ Gv R d W) as (d1 & Ld & W1 & _ & A1).
    apply (IH t1 d1 t2 e2); auto; [lia | | apply (acct_frees _ _ _ A1 ND) |].
    + exact (rebalance_at_closed _ _ _ _ _ _ _ _ _ C Gv Mv R).
    + exact (rebalance_at_good _ _ _ _ _ _ _ _ _ _ _ W ND G Gv Ev R).
  - apply (IH t d t' evs); auto.
    now apply (not_found_good pg rest fuel t d).
Qed.

(** P4: no non-root vertex of the committed tree is empty.  The height is below the fuel (with less fuel [find_node]
    silently finds nothing and visits are skipped); the non-zero page ids of ALL vertices are pairwise distinct (the
    siblings that a merge materialises get their page's id, so pages count too); every non-root vertex without inodes is
    materialised, unbalanced, and has a non-zero page id that occurs in [order]. *)
Theorem commit_tree_no_empty ps fill fuel t order t' evs d :
  wf d t -> (d < fuel)%nat -> closed false t -> NoDup (ids t) -> good order t ->
  commit_tree ps fill fuel t order = Ok (t', evs) -> good [] t' /\ aligned t'.
Proof.
  intros W L C ND G H. split; [|eapply commit_tree_flat; [exists d|]; eauto].
  destruct (commit_tree_cases _ _ _ _ _ _ _ H) as (r & e1 & e2 & R & Sp & _).
  destruct (rebalance_all_keeps _ _ _ _ _ _ _ R d W) as (d1 & _ & W1 & _).
  apply (spill_root_ne ps fill fuel r d1 t' e2 W1); [|exact Sp].
  apply (rebalance_all_good ps fill fuel order t d r e1); auto.
Qed.
Print Assumptions commit_tree_no_empty.

Lemma no_empty_of_good : forall f t d, wf d t -> (d < f)%nat -> forall root, (root = true \/ ins_of t <> []) ->
  Forall (allgood []) (kids_of t) -> no_empty f root t = true.
Proof.
  apply (fuel_ind (fun f t => forall root, (root = true \/ ins_of t <> []) -> Forall (allgood []) (kids_of t) -> no_empty f root t = true)).
  intros f t d W _ IH root Hr K. cbn [no_empty]. apply andb_true_iff. split.
  - destruct Hr as [->|Ne]; [reflexivity|]. destruct (ins_of t); [congruence|]. now destruct root.
  - inversion W as [? ? Hl|d0 ? ? ? Hl Hlen Hk]; subst; cbn [hd_of ins_of kids_of] in *; rewrite Hl; [reflexivity|].
    cbn [orb]. rewrite Hlen, Nat.eqb_refl. cbn [andb]. apply forallb_forall. intros c Hc.
    rewrite Forall_forall in K, IH. apply IH; auto; [right; apply ag_nil_ne; auto | apply ag_kids; auto].
Qed.

Corollary commit_tree_no_empty_b ps fill fuel t order t' evs d :
  wf d t -> (d < fuel)%nat -> closed false t -> NoDup (ids t) -> good order t ->
  commit_tree ps fill fuel t order = Ok (t', evs) -> exists d', wf d' t' /\ forall f, (d' < f)%nat -> no_empty f true t' = true.
Proof.
  intros W L C ND G H. destruct (commit_tree_no_empty _ _ _ _ _ _ _ _ W L C ND G H) as [G' [d' W']].
  exists d'. split; auto. intros f Lf. apply (no_empty_of_good f t' d' W' Lf); auto.
Qed.
Print Assumptions commit_tree_no_empty_b.

Definition mkh (mat unb : bool) (pg : N) (key : bytes) (leaf : bool) : nhdr :=
  {| h_mat := mat; h_unbal := unb; h_pgid := pg; h_ov := 0; h_key := key; h_leaf := leaf |}.
Definition lf (k : N) (v : bytes) : inode := {| i_flags := 0; i_key := [k]; i_val := v; i_pgid := 0 |}.
Definition br (k : N) (pg : N) : inode := {| i_flags := 0; i_key := [k]; i_val := []; i_pgid := pg |}.

(** a materialised branch root (page 2) over three leaves; the middle one (page 4) was emptied and is unbalanced:
    the commit removes it from the root, frees its page, then spills the root (free page 2, allocate 1 page) *)
Definition ex1 : nt :=
  NT (mkh true false 2 [1] false) [br 1 3; br 2 4; br 3 5]
     [ NT (mkh false false 3 [1] true) [lf 1 [10]] [];
       NT (mkh true true 4 [2] true) [] [];
       NT (mkh false false 5 [3] true) [lf 3 [30]; lf 4 [40]] [] ].
Example ex1_commit :
  commit_tree 4096 50 10 ex1 [4] =
  Ok (NT (mkh false false 0 [1] false) [br 1 3; br 3 5]
         [ NT (mkh false false 3 [1] true) [lf 1 [10]] [];
           NT (mkh false false 5 [3] true) [lf 3 [30]; lf 4 [40]] [] ],
      [EvFree 4 0; EvFree 2 0; EvAlloc 1]).
Proof. vm_compute. reflexivity. Qed.
Example ex1_wf : wf 1 ex1.
Proof. repeat (constructor; auto). Qed.

(** a materialised leaf root (page 7) with 7 elements of 300 bytes at page size 1024: it splits into 3 leaves
    (2 + 2 + 3 elements) and gets a new branch root; 1 free, 4 allocations *)
Definition ex2 : nt :=
  NT (mkh true false 7 [1] true) (map (fun k => lf k (repeat 0 283)) [1;2;3;4;5;6;7]) [].
Example ex2_elem_size : map (isz true) (ins_of ex2) = repeat 300 7.
Proof. vm_compute. reflexivity. Qed.
Example ex2_commit :
  match commit_tree 1024 50 10 ex2 [7] with
  | Ok (NT h ins kids, evs) => Some (h, ins, map (fun c => (hd_of c, map i_key (ins_of c), kids_of c)) kids, evs)
  | _ => None end =
  Some (mkh false false 0 [1] false, [br 1 0; br 3 0; br 5 0],
        [ (mkh false false 0 [1] true, [[1]; [2]], []);
          (mkh false false 0 [3] true, [[3]; [4]], []);
          (mkh false false 0 [5] true, [[5]; [6]; [7]], []) ],
        [EvFree 7 0; EvAlloc 1; EvAlloc 1; EvAlloc 1; EvAlloc 1]).
Proof. vm_compute. reflexivity. Qed.
Example ex2_flat : match commit_tree 1024 50 10 ex2 [7] with Ok (t', _) => flat t' = flat ex2 | _ => False end.
Proof.
  pose proof ex2_commit as E. destruct (commit_tree 1024 50 10 ex2 [7]) as [[t' evs]| |] eqn:H; [|discriminate..].
  eapply commit_tree_flat; [|exact H]. exists 0%nat. now constructor.
Qed.

(** why [wf] has a height index.  This tree has as many kids as inodes at every branch vertex and no kids under leaves,
    but its leaves are at different depths: the unbalanced leaf (page 3) is merged with its right sibling, a BRANCH
    (page 4), under the leaf's header, and the branch inodes of page 4 become "leaf elements": the content changes. *)
Definition merge_cex : nt :=
  NT (mkh true false 2 [1] false) [br 1 3; br 5 4]
     [ NT (mkh true true 3 [1] true) [lf 1 [10]] [];
       NT (mkh false false 4 [5] false) [br 5 6; br 7 8]
          [ NT (mkh false false 6 [5] true) [lf 5 [50]] []; NT (mkh false false 8 [7] true) [lf 7 [70]] [] ] ].
Example merge_needs_balance :
  flat merge_cex = [lf 1 [10]; lf 5 [50]; lf 7 [70]] /\
  match commit_tree 4096 50 10 merge_cex [3] with Ok (t', _) => flat t' | _ => [] end = [lf 1 [10]; br 5 6; br 7 8].
Proof. vm_compute. split; reflexivity. Qed.

(** the hypotheses of [commit_tree_no_empty] hold for [ex1]: the theorem is not vacuous *)
Example ex1_hyps : wf 1 ex1 /\ closed false ex1 /\ NoDup (ids ex1) /\ good [4] ex1.
Proof.
  split; [exact ex1_wf|]. split; [|split].
  - assert (Pg : forall pg k i, closed false (NT (mkh false false pg k true) i [])).
    { intros. apply closed_page. constructor; [reflexivity | intros E; discriminate | constructor]. }
    apply closed_mat; [reflexivity|]. constructor; [apply Pg|]. constructor; [apply closed_mat; [reflexivity | constructor]|].
    constructor; [apply Pg | constructor].
  - vm_compute. repeat constructor; cbn; intuition discriminate.
  - unfold good, ex1. cbn [kids_of].
    constructor; [apply ag_nonempty; [discriminate | constructor]|].
    constructor; [|constructor; [apply ag_nonempty; [discriminate | constructor] | constructor]].
    constructor; [|constructor]. intros _. cbn. repeat split; auto. discriminate.
Qed.
Example ex1_no_empty : match commit_tree 4096 50 10 ex1 [4] with Ok (t', _) => no_empty 10 true t' | _ => false end = true.
Proof. rewrite ex1_commit. reflexivity. Qed.
