(** Proofs about Compact.v: a key above everything present is appended, so copying in ascending order rebuilds a list. *)
From Bbolt Require Import Base Spec SpecProofs Compact.

Definition all_lt (prefix : list (bytes * entry)) (k : bytes) : Prop :=
  forall k' e', In (k', e') prefix -> bcmp k' k = Lt.

Lemma sorted_mid_all_lt {prefix k e rest} : keys_sorted (prefix ++ (k, e) :: rest) = true -> all_lt prefix k.
Proof. intros H k' e' I. apply keys_sorted_app in H. destruct H as (_ & _ & X). apply (X k' e' k e I). now left. Qed.

Lemma all_lt_cons k0 e0 p k : all_lt ((k0, e0) :: p) k -> bcmp k k0 = Gt /\ all_lt p k.
Proof.
  intros H. split; [apply bcmp_gt_lt, (H k0 e0); now left | intros k' e' I; apply (H k' e'); now right].
Qed.

Lemma lookup_above {p k} : all_lt p k -> lookup k p = None.
Proof. induction p as [|[k0 e0] p IH]; [reflexivity|]. intros [E H]%all_lt_cons. cbn [lookup]. now rewrite E, IH. Qed.

Lemma insert_above {p k} e : all_lt p k -> insert k e p = p ++ [(k, e)].
Proof. induction p as [|[k0 e0] p IH]; [reflexivity|]. intros [E H]%all_lt_cons. cbn [insert app]. now rewrite E, IH. Qed.

(** copying in ascending key order appends: no re-sorting, nothing lost *)
Lemma insert_last p k e : keys_sorted (p ++ [(k, e)]) = true -> insert k e p = p ++ [(k, e)].
Proof. intros H. apply insert_above, (sorted_mid_all_lt H). Qed.

Theorem copy_in_order_rebuilds ents : forall prefix, keys_sorted (prefix ++ ents) = true ->
  fold_left (fun acc ke => insert (fst ke) (snd ke) acc) ents prefix = prefix ++ ents.
Proof.
  induction ents as [|[k e] ents IH]; intros prefix H; simpl.
  - now rewrite app_nil_r.
  - replace (prefix ++ (k, e) :: ents) with ((prefix ++ [(k, e)]) ++ ents) in * by (now rewrite <- app_assoc).
    rewrite insert_last; [now apply IH | now apply keys_sorted_app in H].
Qed.

(** a source with buckets nested three deep, replayed by evaluation *)
Example compact_nested_example :
  let src : bucket := (0, [([97], Sub 7 [([107; 49], Val []); ([110], Sub 2 [([120], Val [1; 2; 3])]); ([122], Val [9])]);
                           ([98], Sub 0 [])]) in
  wf_ents 8 (snd src) = true /\ compact 8 src = (ENone, src).
Proof. vm_compute. split; reflexivity. Qed.
