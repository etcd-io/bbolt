(** The key-order hypothesis of the cursor theorems ([Cursor.wf (to_ctree t) = true]) seen from Tree.nt: [ob], an inductive
    mirror of [Cursor.wfb], is exactly it on aligned trees ([ob_iff_wfb]).  That the committed tree of a key-ordered tree
    satisfies Cursor.wf (W3) is NOT proved: two examples, by evaluation, show that [Cursor.wfb] is not an invariant of
    rebalance alone and that W3 needs one more hypothesis.  What is proved reduces W3 to [ff t'] (no stale separators)
    for the committed tree ([ff_cursor_wf]). *)
From Bbolt Require Import Base BaseProofs Consts Spec SpecProofs Node Tree NodeProofs TreeProofs TreeNestedProofs TreeCursorProofs.
From Bbolt Require Cursor CursorNavProofs.

Definition next_hi (il : list inode) (i : nat) (hi : option bytes) : option bytes :=
  match nth_error il (S i) with Some y => Some (i_key y) | None => hi end.

Inductive ob : option bytes -> option bytes -> nt -> Prop :=
| ob_leaf lo hi h il : h_leaf h = true -> Cursor.str_inc (map i_key il) = true ->
    Forall (fun x => Cursor.in_lo lo (i_key x) = true /\ Cursor.in_hi (i_key x) hi = true) il -> ob lo hi (NT h il [])
| ob_branch lo hi h il kids : h_leaf h = false -> il <> [] -> length il = length kids ->
    Cursor.str_inc (map i_key il) = true -> Forall (fun x => Cursor.in_hi (i_key x) hi = true) il ->
    (forall i x c, nth_error il i = Some x -> nth_error kids i = Some c ->
       ob (if (i =? 0)%nat then lo else Some (i_key x)) (next_hi il i hi) c) ->
    ob lo hi (NT h il kids).

Lemma wfgo_of_nth lo hi : forall cs first,
  (forall i s c, nth_error cs i = Some (s, c) ->
     Cursor.wfb c (if first && (i =? 0)%nat then lo else Some s)
                (match nth_error cs (S i) with Some (s', _) => Some s' | None => hi end) = true) ->
  CursorNavProofs.wfgo lo hi first cs = true.
Proof.
  induction cs as [|[k c] cs IH]; intros first H; [reflexivity|]. cbn [CursorNavProofs.wfgo]. apply andb_true_iff. split.
  - specialize (H 0%nat k c eq_refl). cbn [nth_error] in H. rewrite andb_true_r in H. destruct cs as [|[k' c'] cs']; exact H.
  - apply IH. intros i s c0 Hn. specialize (H (S i) s c0 Hn). cbn [Nat.eqb] in H. rewrite andb_false_r in H. exact H.
Qed.

Lemma next_hi_eq il kids i hi : length il = length kids ->
  match nth_error (combine (map i_key il) (map to_ctree kids)) (S i) with Some (s', _) => Some s' | None => hi end = next_hi il i hi.
Proof.
  intros L. rewrite nth_error_combine, !nth_error_map. unfold next_hi.
  destruct (nth_error il (S i)) as [y|] eqn:Ey; [|reflexivity]. destruct (nth_error kids (S i)) eqn:Ek; [reflexivity|].
  apply nth_error_None in Ek. apply nth_error_lt in Ey. lia.
Qed.

Theorem ob_iff_wfb : forall d t lo hi, wf d t -> (ob lo hi t <-> Cursor.wfb (to_ctree t) lo hi = true).
Proof.
  induction d as [|d IH]; intros t lo hi W; inversion W as [? ? Hl|? ? ? ? Hl Hlen Hk]; subst; rewrite to_ctree_eq, Hl.
  - cbn [Cursor.wfb]. rewrite map_map. cbn [elem fst]. rewrite andb_true_iff, forallb_forall. split.
    + intros O. inversion O as [? ? ? ? _ SI FB|]; subst; [|congruence]. split; [exact SI|]. intros k Hk0.
      apply in_map_iff in Hk0. destruct Hk0 as (x & <- & Hx). rewrite Forall_forall in FB. now destruct (FB x Hx) as [-> ->].
    + intros [SI FB]. constructor; auto. apply Forall_forall. intros x Hx. apply andb_true_iff, FB. now apply in_map.
  - rewrite CursorNavProofs.wfb_branch, map_fst_combine by now rewrite !map_length.
    assert (Kid : forall i x c lo', nth_error ins i = Some x -> nth_error kids i = Some c ->
              (ob lo' (next_hi ins i hi) c <-> Cursor.wfb (to_ctree c) lo'
                 (match nth_error (combine (map i_key ins) (map to_ctree kids)) (S i) with Some (s', _) => Some s' | None => hi end) = true)).
    { intros i x c lo' Ex Ec. rewrite (next_hi_eq _ _ _ _ Hlen). apply IH. exact (Forall_nth_error _ _ _ _ Hk Ec). }
    split.
    + intros O. inversion O as [|? ? ? ? ? _ Ne _ SI FH CH]; subst; [congruence|]. repeat (apply andb_true_iff; split).
      * rewrite combine_length, !map_length, <- Hlen, Nat.min_id. destruct ins; [congruence | reflexivity].
      * exact SI.
      * apply forallb_forall. intros k Hk0. apply in_map_iff in Hk0. destruct Hk0 as (x & <- & Hx). rewrite Forall_forall in FH. auto.
      * apply wfgo_of_nth. intros i s c' Hn. rewrite nth_error_combine, !nth_error_map in Hn.
        destruct (nth_error ins i) as [x|] eqn:Ex; [|discriminate]. destruct (nth_error kids i) as [c|] eqn:Ec; [|discriminate].
        injection Hn as <- <-. cbn [andb]. apply (Kid i x c); eauto.
    + intros H. apply andb_true_iff in H. destruct H as [H W4]. apply andb_true_iff in H. destruct H as [H W3].
      apply andb_true_iff in H. destruct H as [W1 SI]. rewrite forallb_forall in W3. constructor; auto.
      * intros E. subst ins. discriminate.
      * apply Forall_forall. intros x Hx. apply W3. now apply in_map.
      * intros i x c Ex Ec. apply (Kid i x c _ Ex Ec).
        refine (CursorNavProofs.wfgo_nth lo hi _ true i _ _ W4 _). now rewrite nth_error_combine, !nth_error_map, Ex, Ec.
Qed.

Corollary ob_iff_cursor_wf t : aligned t -> (ob None None t <-> Cursor.wf (to_ctree t) = true).
Proof. intros [d W]. apply (ob_iff_wfb d t None None W). Qed.
Print Assumptions ob_iff_cursor_wf.

Corollary ob_cursor_wf t : aligned t -> ob None None t -> Cursor.wf (to_ctree t) = true.
Proof. intros A. apply (ob_iff_cursor_wf t A). Qed.
Print Assumptions ob_cursor_wf.

Definition lfp (mat : bool) (pg : N) (k : N) : nt := NT (mkh mat false pg [k] true) [lf k [k]] [].
(** root (page 2, materialised) over two branch children: L (page 3: leaves {10}, {20}) and R (page 4, materialised and
    unbalanced: leaves {55} under the STALE separator 60, and {70}).  The key 55 is below its leaf's separator 60, which
    Cursor.wfb allows for a FIRST child (the comment in Cursor.v: "an insert of a new smallest key lands there before the
    next spill").  [r0mat]: whether that leaf is a materialised node (as after a real Put) or a page. *)
Definition stale (r0mat : bool) : nt :=
  NT (mkh true false 2 [10] false) [br 10 3; br 50 4]
     [ NT (mkh false false 3 [10] false) [br 10 5; br 20 6] [lfp false 5 10; lfp false 6 20];
       NT (mkh true true 4 [50] false) [br 60 7; br 70 8] [NT (mkh r0mat false 7 [60] true) [lf 55 [55]] []; lfp false 8 70] ].

(** (1) Cursor.wf is NOT an invariant of rebalance: R is merged into L, so the leaf {55} is no longer a first child but
    keeps the separator 60 until spill re-keys it (it is materialised): wf true -> false -> true. *)
Example wf_broken_between_rebalance_and_spill :
  Cursor.wf (to_ctree (stale true)) = true /\
  match rebalance_all 4096 50 10 (stale true) [4] with
  | Ok (t1, _) => Cursor.wf (to_ctree t1) = false /\ map i_key (ins_of t1) = [[10]; [20]; [60]; [70]] | _ => False end /\
  match commit_tree 4096 50 10 (stale true) [4] with
  | Ok (t', _) => Cursor.wf (to_ctree t') = true /\ map i_key (ins_of t') = [[10]; [20]; [55]; [70]] | _ => False end.
Proof. vm_compute. repeat split; reflexivity. Qed.

(** (2) W3 is FALSE in the model without a further hypothesis: same tree, but the leaf {55} is a PAGE.  Every hypothesis
    of [commit_tree_no_empty] holds (aligned, parent-closed, distinct ids, no empty vertex) and Cursor.wf holds before the
    commit, but spill re-keys only materialised children, so the committed tree keeps 55 under the separator 60 as a
    non-first child: Cursor.wf = false.  (Not reachable in bbolt: a key below a stale separator gets there by node.put,
    which materialises the path to it; on disk every separator is <= the keys below it.  The missing hypothesis is
    exactly that.) *)
Example w3_needs_stale_first_children_materialised :
  Cursor.wf (to_ctree (stale false)) = true /\ wf 2 (stale false) /\ closed false (stale false) /\
  NoDup (ids (stale false)) /\ good [4] (stale false) /\
  match commit_tree 4096 50 10 (stale false) [4] with
  | Ok (t', _) => Cursor.wf (to_ctree t') = false /\ map i_key (ins_of t') = [[10]; [20]; [60]; [70]] | _ => False end.
Proof.
  assert (Pg : forall pg k, closed false (lfp false pg k)).
  { intros. apply closed_page. constructor; [reflexivity | intros E; discriminate | constructor]. }
  split; [vm_compute; reflexivity|]. split; [repeat (constructor; auto)|]. split.
  { apply closed_mat; [reflexivity|]. constructor.
    - apply closed_page. constructor; [reflexivity | intros E; discriminate|].
      repeat constructor; try reflexivity; intros E; discriminate.
    - constructor; [|constructor]. apply closed_mat; [reflexivity|]. constructor; [|constructor; [apply Pg | constructor]].
      apply closed_page. constructor; [reflexivity | intros E; discriminate | constructor]. }
  split; [vm_compute; repeat constructor; cbn; intuition discriminate|]. split.
  { unfold good, stale. cbn [kids_of]. repeat (constructor; [apply ag_nonempty; [discriminate|cbn [kids_of]]|]); repeat constructor;
      try (apply ag_nonempty; [discriminate | constructor]). }
  vm_compute. split; reflexivity.
Qed.

Example ex1_ex2_cursor_wf :
  match commit_tree 4096 50 10 ex1 [4] with Ok (t', _) => Cursor.wf (to_ctree t') | _ => false end = true /\
  match commit_tree 1024 50 10 ex2 [7] with Ok (t', _) => Cursor.wf (to_ctree t') | _ => false end = true.
Proof. vm_compute. split; reflexivity. Qed.

(** W3 is open.  By (1) [ob] is lost between rebalance and spill (spill restores it by re-keying every materialised child
    by its first key), so it has to be shown of rebalance_all-then-spill_root as a whole; by (2) it needs the hypothesis
    that a first child that is NOT materialised holds only keys >= its separator. *)

(** a criterion for [ob] on a tree WITHOUT stale separators.  [ff t] ("fully fresh"): at every branch vertex every separator
    is a lower bound of the keys below its child, and the keys below child i are smaller than separator i+1.  This is what
    a committed tree looks like (spill re-keys every materialised child by its first key; of a child that is not
    materialised it is the hypothesis named above). *)
Definition lbk (k : bytes) (l : list inode) : Prop := Forall (fun y => blt (i_key y) k = false) l.
Definition ubk (l : list inode) (k : bytes) : Prop := Forall (fun y => blt (i_key y) k = true) l.
Definition inb (lo hi : option bytes) (l : list inode) : Prop :=
  Forall (fun y => Cursor.in_lo lo (i_key y) = true /\ Cursor.in_hi (i_key y) hi = true) l.

Inductive ff : nt -> Prop :=
| ff_leaf h il kids : h_leaf h = true -> ff (NT h il kids)
| ff_branch h il kids : h_leaf h = false ->
    (forall i x c, nth_error il i = Some x -> nth_error kids i = Some c -> lbk (i_key x) (flat c) /\ ff c) ->
    (forall i y c, nth_error il (S i) = Some y -> nth_error kids i = Some c -> ubk (flat c) (i_key y)) ->
    ff (NT h il kids).

Lemma str_inc_sorted ks : Cursor.str_inc ks = keys_sorted ks.
Proof. induction ks as [|k r IH]; [reflexivity|]. cbn. destruct r; [reflexivity|]. now rewrite IH. Qed.

Lemma str_inc_nth : forall l, (forall i a b, nth_error l i = Some a -> nth_error l (S i) = Some b -> blt a b = true) -> Cursor.str_inc l = true.
Proof.
  induction l as [|k r IH]; intros H; [reflexivity|]. cbn [Cursor.str_inc]. destruct r as [|k' r']; [reflexivity|].
  apply andb_true_iff. split; [apply (H 0%nat); reflexivity|]. apply IH. intros i a b Ha Hb. apply (H (S i)); auto.
Qed.

Lemma flat_nonempty : forall d c, wf d c -> allgood [] c -> flat c <> [].
Proof.
  induction d as [|d IH]; intros c W A; pose proof (ag_nil_ne _ A) as Ne; apply ag_kids in A;
    inversion W as [? ? Hl|? ? ? ? Hl Hlen Hk]; subst; rewrite flat_eq, Hl; cbn [ins_of kids_of] in *; [exact Ne|].
  destruct kids as [|c0 kr]; [destruct ins; [congruence | discriminate]|]. cbn [flat_map].
  intros E. apply app_eq_nil in E. destruct E as [E _]. revert E. apply (IH c0); [exact (Forall_inv Hk) | exact (Forall_inv A)].
Qed.

Lemma flat_kid_incl h il kids i c y : h_leaf h = false -> nth_error kids i = Some c -> In y (flat c) -> In y (flat (NT h il kids)).
Proof. intros Hl Ec Hy. rewrite flat_eq, Hl. apply in_flat_map. exists c. split; auto. eapply nth_error_In; eauto. Qed.

Theorem ff_ob : forall d t lo hi, wf d t -> isorted (flat t) -> ff t -> allgood [] t -> inb lo hi (flat t) -> ob lo hi t.
Proof.
  induction d as [|d IH]; intros t lo hi W Srt F A B; pose proof (ag_nil_ne _ A) as Ne; pose proof (ag_kids _ _ A) as G;
    inversion W as [? ? Hl|? ? ? ? Hl Hlen Hk]; subst; cbn [ins_of kids_of] in Ne, G.
  - rewrite flat_eq, Hl in Srt, B. constructor; auto.
  - inversion F as [? ? ? Hl'|? ? ? _ FL FU]; subst; [congruence|].
    assert (Wit : forall i x, nth_error ins i = Some x -> exists c y, nth_error kids i = Some c /\ In y (flat c)).
    { intros i x Ex. destruct (nth_error kids i) as [c|] eqn:Ec. 2:{ apply nth_error_None in Ec. apply nth_error_lt in Ex. lia. }
      pose proof (flat_nonempty d c (Forall_nth_error _ _ _ _ Hk Ec) (Forall_nth_error _ _ _ _ G Ec)) as Nf.
      exists c. destruct (flat c) as [|y r]; [congruence | exists y; split; [reflexivity | now left]]. }
    assert (Bin : forall i c y, nth_error kids i = Some c -> In y (flat c) ->
              Cursor.in_lo lo (i_key y) = true /\ Cursor.in_hi (i_key y) hi = true).
    { intros i c y Ec Hy. unfold inb in B. rewrite Forall_forall in B. apply B. eapply flat_kid_incl; eauto. }
    constructor; auto.
    + apply str_inc_nth. intros i a b Ha Hb. rewrite nth_error_map in Ha, Hb.
      destruct (nth_error ins i) as [x|] eqn:Ex; [|discriminate]. destruct (nth_error ins (S i)) as [x'|] eqn:Ex'; [|discriminate].
      injection Ha as <-. injection Hb as <-.
      destruct (Wit i x Ex) as (c & y & Ec & Hy). destruct (FL i x c Ex Ec) as [Lb _]. pose proof (FU i x' c Ex' Ec) as Ub.
      unfold lbk, ubk in *. rewrite Forall_forall in Lb, Ub.
      eapply blt_le_lt_trans; [apply (Lb y Hy) | apply (Ub y Hy)].
    + apply Forall_forall. intros x Hx. apply In_nth_error in Hx. destruct Hx as (i & Ex).
      destruct (Wit i x Ex) as (c & y & Ec & Hy). destruct (FL i x c Ex Ec) as [Lb _].
      unfold lbk in Lb. rewrite Forall_forall in Lb. destruct (Bin i c y Ec Hy) as [_ Bh].
      destruct hi as [hh|]; [|reflexivity]. cbn [Cursor.in_hi] in *.
      eapply blt_le_lt_trans; [apply (Lb y Hy) | exact Bh].
    + intros i x c Ex Ec. destruct (FL i x c Ex Ec) as [Lb Fc]. destruct (nth_error_split _ _ Ec) as (a & b & Ek & La).
      assert (Sc : isorted (flat c)).
      { rewrite flat_eq, Hl, Ek, flat_map_app in Srt. cbn [flat_map] in Srt. eapply isorted_mid; eauto. }
      apply (IH c); auto; [exact (Forall_nth_error _ _ _ _ Hk Ec) | exact (Forall_nth_error _ _ _ _ G Ec) |].
      apply Forall_forall. intros y Hy. destruct (Bin i c y Ec Hy) as [Bl Bh]. split.
      * destruct i; [exact Bl|]. cbn [Nat.eqb Cursor.in_lo]. unfold lbk in Lb. rewrite Forall_forall in Lb. now rewrite (Lb y Hy).
      * unfold next_hi. destruct (nth_error ins (S i)) as [x'|] eqn:Ex'; [|exact Bh].
        pose proof (FU i x' c Ex' Ec) as Ub. unfold ubk in Ub. rewrite Forall_forall in Ub. cbn [Cursor.in_hi]. auto.
Qed.

Corollary ff_cursor_wf t : aligned t -> isorted (flat t) -> ff t -> ins_of t <> [] -> good [] t -> Cursor.wf (to_ctree t) = true.
Proof.
  intros [d W] S F Ne G. apply ob_cursor_wf; [exists d; auto|]. apply (ff_ob d); auto; [now apply ag_nonempty|].
  apply Forall_forall. intros y _. split; reflexivity.
Qed.
Print Assumptions ff_cursor_wf.

Theorem commit_tree_root_nonempty ps fill fuel t order t' evs :
  aligned t -> flat t <> [] -> commit_tree ps fill fuel t order = Ok (t', evs) -> ins_of t' <> [].
Proof.
  intros A Ne H. destruct (commit_tree_flat _ _ _ _ _ _ _ A H) as [F [d' W']].
  intros E. destruct (wf_empty _ _ W' E) as [_ F0]. congruence.
Qed.

(** End to end, with the ONE open obligation explicit: under the hypotheses of [commit_tree_no_empty], global key order
    and non-empty content, a committed tree without stale separators ([ff t'], not proved) satisfies Cursor.wf. *)
Theorem commit_tree_cursor_wf_if_ff ps fill fuel t order t' evs d :
  wf d t -> (d < fuel)%nat -> closed false t -> NoDup (ids t) -> good order t ->
  isorted (flat t) -> flat t <> [] ->
  commit_tree ps fill fuel t order = Ok (t', evs) -> ff t' -> Cursor.wf (to_ctree t') = true.
Proof.
  intros W L C ND G Srt Ne H F.
  destruct (commit_tree_no_empty _ _ _ _ _ _ _ _ W L C ND G H) as [G' A'].
  destruct (commit_tree_flat _ _ _ _ _ _ _ (ex_intro _ d W) H) as [Fl _].
  apply ff_cursor_wf; [exact A' | | exact F | | exact G'].
  - unfold isorted in *. rewrite Fl. exact Srt.
  - apply (commit_tree_root_nonempty ps fill fuel t order t' evs); auto. exists d; auto.
Qed.
Print Assumptions commit_tree_cursor_wf_if_ff.

(** the case where nothing is open: the committed root is a leaf (small buckets) - [ff] is trivial there *)
Corollary commit_tree_cursor_wf_leaf ps fill fuel t order t' evs :
  aligned t -> isorted (flat t) -> commit_tree ps fill fuel t order = Ok (t', evs) ->
  h_leaf (hd_of t') = true -> Cursor.wf (to_ctree t') = true.
Proof.
  intros A Srt H Lf. destruct (commit_tree_flat _ _ _ _ _ _ _ A H) as [Fl [d' W']].
  apply ob_cursor_wf; [exists d'; auto|].
  destruct (wf_leaf_inv _ _ W' Lf) as (-> & K & E). destruct t' as [h il kids]. cbn [hd_of kids_of ins_of] in *. subst kids.
  constructor; auto.
  - rewrite str_inc_sorted. rewrite <- E. unfold isorted, keys_of in Srt. now rewrite Fl.
  - apply Forall_forall. intros x _. split; reflexivity.
Qed.
Print Assumptions commit_tree_cursor_wf_leaf.
