(** Key order of [flatten t] and where Seek's search ends; the backward moves; and mixed navigation: on trees
    without emptied leaves the repaired cursor refines the list specification for every call sequence. *)
From Bbolt Require Import Base BaseProofs Spec SpecProofs Cursor CursorProofs CursorEnumProofs.
Close Scope N_scope.
Open Scope nat_scope.

Lemma app_snoc_inv {A} (b b' : list A) x y : b ++ [x] = b' ++ [y] -> b = b' /\ x = y.
Proof. intros H. apply app_inj_tail in H. exact H. Qed.

Lemma str_inc_cons k r : str_inc (k :: r) = true <-> (forall s, In s r -> blt k s = true) /\ str_inc r = true.
Proof.
  revert k. induction r as [|k' r IH]; intros k; [split; [split; [intros s []|reflexivity]|reflexivity]|].
  change (str_inc (k :: k' :: r)) with (blt k k' && str_inc (k' :: r)). split.
  - intros H. apply andb_prop in H as [H1 H2]. split; [|exact H2]. intros s [<-|Hs]; [exact H1|].
    exact (blt_trans _ _ _ H1 (proj1 (proj1 (IH k') H2) s Hs)).
  - intros [H1 H2]. rewrite H2, (H1 k' (or_introl eq_refl)). reflexivity.
Qed.

Lemma str_inc_nth ks : str_inc ks = true -> forall i i' s s', i < i' ->
  nth_error ks i = Some s -> nth_error ks i' = Some s' -> blt s s' = true.
Proof.
  induction ks as [|k r IH]; intros H i i' s s' L Hi Hi'; [destruct i; discriminate|].
  apply str_inc_cons in H as [Hd Tl]. destruct i' as [|i']; [lia|]. cbn [nth_error] in Hi'. destruct i as [|i].
  - cbn in Hi. injection Hi as <-. exact (Hd s' (nth_error_In _ _ Hi')).
  - cbn [nth_error] in Hi. apply (IH Tl i i'); [lia|exact Hi|exact Hi'].
Qed.

Lemma str_inc_app l1 : forall l2, str_inc l1 = true -> str_inc l2 = true ->
  (forall x y, In x l1 -> In y l2 -> blt x y = true) -> str_inc (l1 ++ l2) = true.
Proof.
  induction l1 as [|x l1 IH]; intros l2 S1 S2 C; [exact S2|].
  apply str_inc_cons in S1 as [Hd Tl]. cbn [app]. apply str_inc_cons. split.
  - intros s Hs. apply in_app_or in Hs as [Hs|Hs]; [exact (Hd s Hs)|exact (C x s (or_introl eq_refl) Hs)].
  - apply (IH l2 Tl S2). intros a b Ha Hb. apply C; [right; exact Ha|exact Hb].
Qed.

Lemma str_inc_flat_map {A B} (g : B -> bytes) (f : A -> list B) (l : list A) :
  (forall a, In a l -> str_inc (map g (f a)) = true) ->
  (forall i j a a' x y, i < j -> nth_error l i = Some a -> nth_error l j = Some a' -> In x (f a) -> In y (f a') ->
     blt (g x) (g y) = true) ->
  str_inc (map g (flat_map f l)) = true.
Proof.
  induction l as [|a l IH]; intros Hs C; [reflexivity|]. cbn [flat_map]. rewrite map_app. apply str_inc_app.
  - apply Hs. left. reflexivity.
  - apply IH.
    + intros a' Ha. apply Hs. right. exact Ha.
    + intros i j a1 a2 x y L. apply (C (S i) (S j)). lia.
  - intros kx ky Hx Hy. apply in_map_iff in Hx as (x & <- & Hx). apply in_map_iff in Hy as (y & <- & Hy).
    apply in_flat_map in Hy as (a' & Ha & Hy). apply In_nth_error in Ha as (j & Hj).
    apply (C 0 (S j) a a' x y (Nat.lt_0_succ j) eq_refl Hj Hx Hy).
Qed.

Lemma fg_len k ks : first_ge k ks <= length ks.
Proof. induction ks as [|x r IH]; cbn [first_ge length]; [lia|]. destruct (blt x k); lia. Qed.

Lemma fg_lt k ks : forall i s, i < first_ge k ks -> nth_error ks i = Some s -> blt s k = true.
Proof.
  induction ks as [|x r IH]; intros i s L Hn; cbn [first_ge] in L; [lia|].
  destruct (blt x k) eqn:E; [|lia]. destruct i as [|i]; cbn in Hn.
  - injection Hn as <-. exact E.
  - apply (IH i); [lia|exact Hn].
Qed.

Lemma fg_ge k ks : forall s, nth_error ks (first_ge k ks) = Some s -> blt s k = false.
Proof.
  induction ks as [|x r IH]; intros s Hn; cbn [first_ge] in Hn; [discriminate|].
  destruct (blt x k) eqn:E.
  - cbn [nth_error] in Hn. apply IH. exact Hn.
  - cbn in Hn. injection Hn as <-. exact E.
Qed.

Lemma fg_after k ks : str_inc ks = true -> forall i s, first_ge k ks <= i -> nth_error ks i = Some s -> blt s k = false.
Proof.
  induction ks as [|x r IH]; intros SI i s L Hn; [destruct i; discriminate|]. cbn [first_ge] in L.
  apply str_inc_cons in SI as [Hd Tl]. destruct (blt x k) eqn:E.
  - destruct i as [|i]; [lia|]. apply (IH Tl i); [lia|exact Hn].
  - destruct i as [|i]; cbn in Hn.
    + injection Hn as <-. exact E.
    + apply (ble_trans k x s E), blt_asym, Hd. exact (nth_error_In _ _ Hn).
Qed.

Definition key (e : elem) : bytes := fst (fst e).
Definition bounded (lo hi : option bytes) (e : elem) : Prop :=
  in_lo lo (key e) = true /\ in_hi (key e) hi = true.
Notation keys l := (map (fun e : elem => fst (fst e)) l).
Definition ltk (k : bytes) (e : elem) : Prop := blt (key e) k = true.
Definition gek (k : bytes) (e : elem) : Prop := blt (key e) k = false.

Lemma fg_firstn_elems k (es : list elem) : Forall (ltk k) (firstn (first_ge k (keys es)) es).
Proof.
  induction es as [|e es IH]; cbn [map first_ge]; [constructor|].
  destruct (blt (fst (fst e)) k) eqn:E; cbn [firstn]; constructor; [exact E|exact IH].
Qed.

Lemma fg_app k (b r : list elem) : Forall (ltk k) b -> match r with [] => True | e :: _ => gek k e end ->
  first_ge k (keys (b ++ r)) = length b.
Proof.
  intros Hb Hr. induction Hb as [|x b Hx _ IH]; cbn [app map first_ge length].
  - destruct r as [|e r]; [reflexivity|]. cbn [map first_ge]. unfold gek, key in Hr. rewrite Hr. reflexivity.
  - unfold ltk, key in Hx. rewrite Hx, IH. reflexivity.
Qed.

(** the child that searchNode/searchPage descends into *)
Definition pick (k : bytes) (ks : list bytes) : nat :=
  let idx := first_ge k ks in
  let exact := match nth_error ks idx with Some s => beq s k | None => false end in
  if negb exact && (0 <? idx) then idx - 1 else idx.

Lemma pick_spec k ks : str_inc ks = true -> ks <> [] ->
  pick k ks < length ks /\
  (forall i s, i < pick k ks -> nth_error ks (S i) = Some s -> blt k s = false) /\
  (forall i s, pick k ks < i -> nth_error ks i = Some s -> blt s k = false).
Proof.
  intros SI Hne. unfold pick.
  pose proof (fg_len k ks) as FL. pose proof (fg_after k ks SI) as After.
  assert (Below : forall i s, S i < first_ge k ks -> nth_error ks (S i) = Some s -> blt k s = false)
    by (intros i s L Hn; apply blt_asym, (fg_lt k ks (S i) s L Hn)).
  remember (first_ge k ks) as idx eqn:Ei in *.
  destruct (match nth_error ks idx with Some s => beq s k | None => false end) eqn:EX; cbn [negb andb].
  - (* the key is there: its own child *)
    destruct (nth_error ks idx) as [s0|] eqn:E0; [|discriminate]. apply beq_eq in EX. subst s0.
    split; [exact (nth_error_lt _ _ _ E0)|]. split; intros i s L; [|apply After; lia].
    intros Hn. destruct (Nat.eq_dec (S i) idx) as [E|N].
    + rewrite E, E0 in Hn. injection Hn as <-. apply blt_irrefl.
    + apply (Below i s); [lia|exact Hn].
  - (* otherwise the child before, if there is one *)
    destruct idx as [|n]; cbn [Nat.ltb Nat.leb].
    + split; [destruct ks; [congruence|apply Nat.lt_0_succ]|]. split; intros i s L; [inversion L|apply After; lia].
    + split; [lia|]. split; intros i s L; [apply Below|apply After]; lia.
Qed.

(** the local [fix go] of [wfb] as a function of its own *)
Fixpoint wfgo (lo hi : option bytes) (first : bool) (cs : list (bytes * tree)) : bool :=
  match cs with
  | [] => true
  | (k, c) :: r =>
      wfb c (if first then lo else Some k) (match r with [] => hi | (k', _) :: _ => Some k' end)
      && wfgo lo hi false r
  end.

Lemma wfb_branch cs lo hi : wfb (Branch cs) lo hi =
  negb (length cs =? 0) && str_inc (map fst cs) && forallb (fun k => in_hi k hi) (map fst cs) && wfgo lo hi true cs.
Proof.
  cbn [wfb]. f_equal.
  (* the local [fix] has no name: take it from the goal, and let its flag vary for the induction *)
  match goal with |- ?go true cs = _ => enough (E : forall first, go first cs = wfgo lo hi first cs) by apply E end.
  induction cs as [|[k c] cs IH]; intros first; [reflexivity|]. cbn [wfgo]. rewrite <- IH. reflexivity.
Qed.

Lemma wfb_branch_inv cs lo hi : wfb (Branch cs) lo hi = true ->
  negb (length cs =? 0) = true /\ str_inc (map fst cs) = true /\
  forallb (fun k => in_hi k hi) (map fst cs) = true /\ wfgo lo hi true cs = true.
Proof.
  rewrite wfb_branch. intros H. apply andb_prop in H as [H W]. apply andb_prop in H as [H HI].
  apply andb_prop in H as [NE SI]. auto.
Qed.

Lemma wfgo_nth lo hi cs : forall first i s c, wfgo lo hi first cs = true -> nth_error cs i = Some (s, c) ->
  wfb c (if first && (i =? 0) then lo else Some s)
        (match nth_error cs (S i) with Some (s', _) => Some s' | None => hi end) = true.
Proof.
  induction cs as [|[k0 c0] cs IH]; intros first i s c W Hn; [destruct i; discriminate|].
  cbn [wfgo] in W. apply andb_true_iff in W as [W1 W2]. destruct i as [|i].
  - cbn in Hn. injection Hn as <- <-. rewrite andb_true_r. cbn [nth_error].
    destruct cs as [|[k' c'] cs]; exact W1.
  - cbn [nth_error] in Hn. specialize (IH false i s c W2 Hn). cbn [andb] in IH.
    rewrite andb_false_r. exact IH.
Qed.

Lemma wfb_branches_nonempty t : forall lo hi, wfb t lo hi = true -> branches_nonempty t = true.
Proof.
  induction t as [es|cs IH] using tree_ind'; intros lo hi W; [reflexivity|].
  destruct (wfb_branch_inv _ _ _ W) as (W1 & _ & _ & W4). cbn [branches_nonempty]. rewrite W1.
  apply forallb_forall. intros [k c] Hin. apply In_nth_error in Hin as Hn. destruct Hn as (i & Hn).
  exact (IH k c Hin _ _ (wfgo_nth lo hi cs true i k c W4 Hn)).
Qed.

(** the interval [wfb] gives each child of a branch: child 0 inherits [lo], a later child starts at its own
    separator; every child ends at the next separator, the last one at [hi] *)
Definition children_bounded (cs : list (bytes * tree)) (lo hi : option bytes) : Prop :=
  forall i s c, nth_error cs i = Some (s, c) -> forall y, In y (flatten c) ->
  bounded (if (i =? 0) then lo else Some s)
          (match nth_error cs (S i) with Some (s', _) => Some s' | None => hi end) y.

Section Separators.
  Variables (cs : list (bytes * tree)) (lo hi : option bytes).
  Hypothesis SI : str_inc (map fst cs) = true.
  Hypothesis CB : children_bounded cs lo hi.

  Lemma below_sep i j s c s' c' x : i < j -> nth_error cs i = Some (s, c) -> nth_error cs j = Some (s', c') ->
    In x (flatten c) -> blt (key x) s' = true.
  Proof.
    intros L Hi Hj Hx. destruct (CB i s c Hi x Hx) as [_ BH]. apply nth_error_lt in Hj as Lj.
    destruct (nth_error_ex cs (S i)) as ([s1 c1] & H1); [lia|]. rewrite H1 in BH. cbn [in_hi] in BH.
    destruct (Nat.eq_dec (S i) j) as [<-|N].
    - rewrite H1 in Hj. injection Hj as <- _. exact BH.
    - apply (blt_trans _ s1); [exact BH|].
      exact (str_inc_nth (map fst cs) SI (S i) j s1 s' ltac:(lia) (map_nth_error fst _ _ H1) (map_nth_error fst _ _ Hj)).
  Qed.

  Lemma above_sep j s c y : 0 < j -> nth_error cs j = Some (s, c) -> In y (flatten c) -> blt (key y) s = false.
  Proof.
    intros L Hj Hy. destruct (CB j s c Hj y Hy) as [BL _]. destruct j; [inversion L|]. apply negb_true_iff. exact BL.
  Qed.

  Lemma children_ordered i j s c s' c' x y : i < j -> nth_error cs i = Some (s, c) -> nth_error cs j = Some (s', c') ->
    In x (flatten c) -> In y (flatten c') -> blt (key x) (key y) = true.
  Proof.
    intros L Hi Hj Hx Hy. apply (blt_lt_le_trans _ s').
    - apply (below_sep i j s c s' c' x L Hi Hj Hx).
    - apply (above_sep j s' c' y); [lia|exact Hj|exact Hy].
  Qed.

  Lemma left_of_child k j : j < length cs ->
    (forall i s, i < j -> nth_error (map fst cs) (S i) = Some s -> blt k s = false) ->
    Forall (ltk k) (flatten (Branch (firstn j cs))).
  Proof.
    intros Lj PB. apply Forall_forall. intros x Hx. apply in_flat_map in Hx as ([s c] & Hc & Hx).
    apply In_firstn_nth in Hc as (i & Li & Hn). destruct (nth_error_ex cs (S i)) as ([s1 c1] & H1); [lia|].
    apply (blt_lt_le_trans _ s1).
    - apply (below_sep i (S i) s c s1 c1 x (Nat.lt_succ_diag_r i) Hn H1 Hx).
    - exact (PB i s1 Li (map_nth_error fst _ _ H1)).
  Qed.

  Lemma right_of_child k j : (forall i s, j < i -> nth_error (map fst cs) i = Some s -> blt s k = false) ->
    Forall (gek k) (flatten (Branch (skipn (S j) cs))).
  Proof.
    intros PA. apply Forall_forall. intros x Hx. apply in_flat_map in Hx as ([s c] & Hc & Hx).
    apply In_skipn_nth in Hc as (i & Li & Hn). apply (ble_trans k s).
    - exact (PA i s Li (map_nth_error fst _ _ Hn)).
    - apply (above_sep i s c x); [lia|exact Hn|exact Hx].
  Qed.
End Separators.

Lemma wfb_bounds t : forall lo hi, good t -> wfb t lo hi = true -> forall x, In x (flatten t) -> bounded lo hi x.
Proof.
  induction t as [es|cs IH] using tree_ind'; intros lo hi G W x Hin.
  - cbn [wfb] in W. apply andb_true_iff in W as [_ W]. rewrite forallb_forall in W.
    apply andb_true_iff. apply (W (key x)). apply (in_map _ _ _ Hin).
  - destruct (wfb_branch_inv _ _ _ W) as (_ & SI & HI & W4). destruct (good_branch _ G) as [Hne Gc].
    assert (CB : children_bounded cs lo hi).
    { intros i s c Hn. apply nth_error_In in Hn as Hc. apply (IH s c Hc _ _ (Gc s c Hc)).
      apply (wfgo_nth lo hi cs true i s c W4 Hn). }
    cbn [flatten] in Hin. apply in_flat_map in Hin as ([s c] & Hc & Hx). apply In_nth_error in Hc as (i & Hn).
    destruct (CB i s c Hn x Hx) as [BL BH]. split.
    + destruct i as [|i]; [exact BL|]. destruct lo as [l|]; [|reflexivity].
      (* child 0 is not empty: some y in it has l <= y, and y < s <= x *)
      destruct cs as [|[s0 c0] cs']; [congruence|].
      pose proof (good_flatten_ne c0 (Gc s0 c0 (or_introl eq_refl))) as Fy.
      destruct (flatten c0) as [|y ys] eqn:E0; [congruence|].
      assert (Hy : In y (flatten c0)) by (rewrite E0; left; reflexivity).
      destruct (CB 0 s0 c0 eq_refl y Hy) as [YL _].
      pose proof (below_sep _ _ _ SI CB 0 (S i) s0 c0 s c y (Nat.lt_0_succ i) eq_refl Hn Hy) as YS.
      apply negb_true_iff in BL, YL. apply negb_true_iff.
      apply (ble_trans l s); [|exact BL]. apply blt_asym. apply (blt_le_lt_trans _ (key y)); [exact YL|exact YS].
    + destruct (nth_error cs (S i)) as [[s' c']|] eqn:Hs; [|exact BH].
      cbn [in_hi] in BH. rewrite forallb_forall in HI. specialize (HI s' (in_map fst _ _ (nth_error_In _ _ Hs))).
      destruct hi as [h|]; [|reflexivity]. exact (blt_trans _ _ _ BH HI).
Qed.

Lemma child_bounds cs lo hi : good (Branch cs) -> wfb (Branch cs) lo hi = true -> children_bounded cs lo hi.
Proof.
  intros G W i s c Hn. destruct (wfb_branch_inv _ _ _ W) as (_ & _ & _ & W4).
  apply wfb_bounds; [exact (good_child _ _ _ _ G Hn)|exact (wfgo_nth lo hi cs true i s c W4 Hn)].
Qed.

Lemma flatten_sorted t : forall lo hi, good t -> wfb t lo hi = true -> str_inc (keys (flatten t)) = true.
Proof.
  induction t as [es|cs IH] using tree_ind'; intros lo hi G W.
  - cbn [wfb] in W. apply andb_true_iff in W as [W _]. exact W.
  - destruct (wfb_branch_inv _ _ _ W) as (_ & SI & _ & W4). destruct (good_branch _ G) as [_ Gc].
    apply (str_inc_flat_map key).
    + intros [s c] Hc. apply In_nth_error in Hc as Hn. destruct Hn as (i & Hn).
      apply (IH s c Hc _ _ (Gc s c Hc) (wfgo_nth lo hi cs true i s c W4 Hn)).
    + intros i j [s c] [s' c'] x y. apply (children_ordered cs lo hi SI (child_bounds cs lo hi G W)).
Qed.

(** what search leaves on the stack: either an element (everything before it is < k, it is >= k), or the
    position just past the last element of a leaf (everything up to there is < k, everything after is >= k) *)
Definition past_leaf (t : tree) (st : stack) (b : list elem) (e : elem) (a : list elem) : Prop :=
  exists es i tl, st = (Leaf es, Z.of_nat (S i)) :: tl /\ length es = S i /\
                  at_pos t ((Leaf es, Z.of_nat i) :: tl) b e a.

Definition search_post (t : tree) (k : bytes) (st : stack) : Prop :=
  (exists b e a, at_pos t st b e a /\ Forall (ltk k) b /\ gek k e) \/
  (exists b e a, past_leaf t st b e a /\ Forall (ltk k) (b ++ [e]) /\ Forall (gek k) a).

Lemma search_leaf k es : es <> [] -> search_post (Leaf es) k [(Leaf es, Z.of_nat (first_ge k (keys es)))].
Proof.
  intros Hne. pose proof (fg_len k (keys es)) as FL. rewrite map_length in FL.
  pose proof (fg_firstn_elems k es) as FF.
  destruct (nth_error es (first_ge k (keys es))) as [e|] eqn:En.
  - left. exists (firstn (first_ge k (keys es)) es), e, (skipn (S (first_ge k (keys es))) es). split; [|split].
    + apply AtLeaf; [exact En|reflexivity|reflexivity].
    + exact FF.
    + exact (fg_ge k (keys es) _ (map_nth_error _ _ _ En)).
  - apply nth_error_None in En. destruct (nth_error_last es Hne) as (i & x & L & Hn).
    assert (Ei : first_ge k (keys es) = S i) by lia. rewrite Ei in *.
    right. exists (firstn i es), x, []. split; [|split].
    + exists es, i, []. split; [reflexivity|]. split; [exact L|].
      apply AtLeaf; [exact Hn|reflexivity|]. rewrite <- L. symmetry. apply skipn_all.
    + rewrite <- (firstn_S_nth _ _ _ Hn). exact FF.
    + constructor.
Qed.

Lemma search_post_child k cs j s c st : nth_error cs j = Some (s, c) -> search_post c k st ->
  Forall (ltk k) (flatten (Branch (firstn j cs))) -> Forall (gek k) (flatten (Branch (skipn (S j) cs))) ->
  search_post (Branch cs) k (st ++ [(Branch cs, Z.of_nat j)]).
Proof.
  intros Hj [(b & e & a & P & Hb & He)|(b & e & a & PL & Hb & Ha)] Pre Suf; [left|right];
    exists (flatten (Branch (firstn j cs)) ++ b), e, (a ++ flatten (Branch (skipn (S j) cs))).
  - split; [exact (AtBranch cs j s c st b e a _ _ Hj P eq_refl eq_refl)|].
    split; [apply Forall_app; split; assumption|exact He].
  - destruct PL as (es & i & tl & -> & L & P). split.
    + exists es, i, (tl ++ [(Branch cs, Z.of_nat j)]). split; [reflexivity|]. split; [exact L|].
      exact (AtBranch cs j s c ((Leaf es, Z.of_nat i) :: tl) b e a _ _ Hj P eq_refl eq_refl).
    + rewrite <- app_assoc. split; apply Forall_app; split; assumption.
Qed.

Lemma search_good k fuel : forall t lo hi rest, good t -> wfb t lo hi = true -> depth t <= fuel ->
  exists st, search fuel k t rest = Ok (st ++ rest) /\ search_post t k st.
Proof.
  induction fuel as [|f IH]; intros t lo hi rest G W D; [pose proof (depth_pos t); lia|].
  destruct t as [es|cs].
  - exists [(Leaf es, Z.of_nat (first_ge k (keys es)))]. split; [reflexivity|exact (search_leaf k es (good_leaf _ G))].
  - destruct (wfb_branch_inv _ _ _ W) as (_ & SI & _ & W4). pose proof (child_bounds cs lo hi G W) as CB.
    assert (KN : map fst cs <> []) by (intros E; exact (proj1 (good_branch _ G) (map_eq_nil _ _ E))).
    destruct (pick_spec k (map fst cs) SI KN) as (PL & PB & PA). rewrite map_length in PL.
    cbn [search is_leaf tree_keys]. fold (pick k (map fst cs)).
    set (j := pick k (map fst cs)) in *.
    destruct (nth_error_ex cs j PL) as ([s c] & Hj). rewrite child_nat, Hj. cbn [option_map snd].
    pose proof (depth_child _ _ _ _ Hj) as D0.
    destruct (IH c _ _ ((Branch cs, Z.of_nat j) :: rest) (good_child _ _ _ _ G Hj)
                (wfgo_nth lo hi cs true j s c W4 Hj) ltac:(lia)) as (st & E & Post).
    exists (st ++ [(Branch cs, Z.of_nat j)]). split; [rewrite E, <- app_assoc; reflexivity|].
    exact (search_post_child k cs j s c st Hj Post (left_of_child cs lo hi SI CB k j PL PB)
             (right_of_child cs lo hi CB k j PA)).
Qed.

(** Seek() after search: at an element it returns it, just past a leaf's end it goes on with next() *)
Lemma seek_at t k fuel st b e a : search fuel k t [] = Ok st -> at_pos t st b e a ->
  seek_ fuel t k = Ok (st, kv_of e).
Proof.
  intros E P. unfold seek_. rewrite E. cbn [bindr].
  destruct (at_pos_top _ _ _ _ _ P) as (es & i & tl & -> & Hn). destruct (key_value_leaf es i tl e Hn) as [_ K].
  rewrite K. cbn [bindr count]. apply nth_error_lt in Hn.
  destruct (Z.geb_spec (Z.of_nat i) (Z.of_nat (length es))) as [X|_]; [lia|reflexivity].
Qed.

Lemma seek_past t k fuel st b e a : search fuel k t [] = Ok st -> past_leaf t st b e a ->
  seek_ fuel t k = next_ fuel st.
Proof.
  intros E (es & i & tl & -> & L & _). unfold seek_. rewrite E. cbn [bindr key_value count]. rewrite L.
  destruct (Z.geb_spec (Z.of_nat (S i)) (Z.of_nat (S i))) as [_|X]; [|lia]. rewrite orb_true_r. reflexivity.
Qed.

Lemma next_past t st b e a fuel : past_leaf t st b e a -> good t -> depth t <= fuel ->
  match a with
  | [] => next_ fuel st = Ok (st, None)
  | e' :: a' => exists st2, next_ fuel st = Ok (st2, kv_of e') /\ at_pos t st2 (b ++ [e]) e' a'
  end.
Proof.
  intros (es & i & tl & -> & L & P). apply (next_good _ _ _ _ _ _ fuel P).
  rewrite !next_up_last by (cbn [count]; lia). reflexivity.
Qed.

Lemma Z_of_S_pred i : (Z.of_nat (S i) - 1)%Z = Z.of_nat i.
Proof. lia. Qed.

Lemma go_last_app fuel : forall st st2 rest, go_last fuel st = Ok st2 -> go_last fuel (st ++ rest) = Ok (st2 ++ rest).
Proof.
  induction fuel as [|f IH]; intros [|[t i] st] st2 rest E; try discriminate. cbn [app go_last] in *.
  destruct (is_leaf t); [injection E as <-; reflexivity|]. destruct (child t i) as [c|]; [|discriminate].
  exact (IH ((c, (count c - 1)%Z) :: (t, i) :: st) st2 rest E).
Qed.

Lemma go_last_into f cs i k c st : nth_error cs i = Some (k, c) -> go_last f [(c, (count c - 1)%Z)] = Ok st ->
  go_last (S f) [(Branch cs, Z.of_nat i)] = Ok (st ++ [(Branch cs, Z.of_nat i)]).
Proof.
  intros Hn E. cbn [go_last is_leaf]. rewrite child_nat, Hn. exact (go_last_app f [(c, (count c - 1)%Z)] st _ E).
Qed.

Lemma go_last_good fuel : forall c, good c -> depth c <= fuel ->
  exists st b e, go_last fuel [(c, (count c - 1)%Z)] = Ok st /\ at_pos c st b e [].
Proof.
  induction fuel as [|f IH]; intros c G D; [pose proof (depth_pos c); lia|].
  destruct c as [es|cs].
  - destruct (nth_error_last es (good_leaf _ G)) as (i & x & L & Hn).
    exists [(Leaf es, Z.of_nat i)], (firstn i es), x. cbn [count]. rewrite L, Z_of_S_pred. split; [reflexivity|].
    apply AtLeaf; [exact Hn|reflexivity|]. rewrite <- L. symmetry. apply skipn_all.
  - destruct (nth_error_last cs (proj1 (good_branch _ G))) as (i & [k c0] & L & Hn).
    pose proof (depth_child cs _ k c0 Hn) as D0.
    destruct (IH c0 (good_child _ _ _ _ G Hn) ltac:(lia)) as (st & b & e & Eg & P).
    exists (st ++ [(Branch cs, Z.of_nat i)]), (flatten (Branch (firstn i cs)) ++ b), e.
    cbn [count]. rewrite L, Z_of_S_pred. split; [exact (go_last_into f cs i k c0 st Hn Eg)|].
    eapply AtBranch; [exact Hn|exact P|reflexivity|]. rewrite <- L, skipn_all. reflexivity.
Qed.

Lemma prev_up_zero t rest : prev_up ((t, 0%Z) :: rest) = match rest with [] => PFirst | _ => prev_up rest end.
Proof. reflexivity. Qed.

Lemma prev_up_pos t i rest : prev_up ((t, Z.of_nat (S i)) :: rest) = PBreak ((t, Z.of_nat i) :: rest).
Proof.
  cbn [prev_up]. destruct (Z.gtb_spec (Z.of_nat (S i)) 0) as [_|X]; [|lia]. rewrite Z_of_S_pred. reflexivity.
Qed.

Lemma prev_up_app st rest : prev_up (st ++ rest) =
  match prev_up st with
  | PBreak st1 => PBreak (st1 ++ rest)
  | PFirst => match rest with [] => PFirst | _ => prev_up rest end
  | PEmpty => prev_up rest
  end.
Proof.
  induction st as [|[t i] st IH]; [reflexivity|]. cbn [app prev_up]. destruct (i >? 0)%Z; [reflexivity|].
  destruct st; [reflexivity|exact IH].
Qed.

Lemma at_pos_ne t st b e a : at_pos t st b e a -> st <> [].
Proof. intros P. destruct (at_pos_top _ _ _ _ _ P) as (es & i & tl & -> & _). discriminate. Qed.

(** prev() from a position with [b] before it: the loop pops the nodes standing at index 0; when an element precedes,
    the first node with a positive index moves back by one and last()'s descent goes from there to that element *)
Inductive prev_moves (fuel : nat) (t : tree) (st : stack) (e : elem) (a : list elem) : list elem -> Prop :=
| AtFirst : prev_up st = PFirst -> prev_moves fuel t st e a []
| MovesBack b' e' st1 st2 : prev_up st = PBreak st1 -> go_last fuel st1 = Ok st2 -> at_pos t st2 b' e' (e :: a) ->
    prev_moves fuel t st e a (b' ++ [e']).

Lemma prev_step fuel t st b e a : at_pos t st b e a -> good t -> depth t <= fuel -> prev_moves fuel t st e a b.
Proof.
  induction 1 as [es i e b a Hn -> ->|cs i k c st b e a b' a' Hn H IH -> ->]; intros G D.
  - destruct i as [|j]; [apply AtFirst; reflexivity|].
    destruct (nth_error_ex es j) as (e' & Hj); [apply nth_error_lt in Hn; lia|].
    rewrite (firstn_S_nth _ _ _ Hj).
    apply MovesBack with (st1 := [(Leaf es, Z.of_nat j)]) (st2 := [(Leaf es, Z.of_nat j)]).
    + apply prev_up_pos.
    + destruct fuel; [inversion D|reflexivity].
    + apply AtLeaf; [exact Hj|reflexivity|symmetry; apply (skipn_nth_cons _ _ _ Hn)].
  - pose proof (depth_child _ _ _ _ Hn) as D0.
    destruct (IH (good_child _ _ _ _ G Hn) ltac:(lia)) as [Up|b' e' st1 st2 Up Down P].
    + (* the child is at its first element: move to the previous child, if there is one, and descend to its last element *)
      rewrite app_nil_r. destruct i as [|j]; [apply AtFirst; rewrite prev_up_app, Up; reflexivity|].
      destruct (nth_error_ex cs j) as ([k1 c1] & Hj); [apply nth_error_lt in Hn; lia|].
      destruct fuel as [|f]; [lia|]. pose proof (depth_child _ _ _ _ Hj) as D1.
      destruct (go_last_good f c1 (good_child _ _ _ _ G Hj) ltac:(lia)) as (st2 & b2 & e2 & Down & P2).
      rewrite (flatten_firstn_S _ _ _ _ Hj), (at_pos_flatten _ _ _ _ _ P2), app_assoc.
      apply MovesBack with (st1 := [(Branch cs, Z.of_nat j)]) (st2 := st2 ++ [(Branch cs, Z.of_nat j)]).
      * rewrite prev_up_app, Up. apply prev_up_pos.
      * exact (go_last_into f cs j k1 c1 st2 Hj Down).
      * eapply AtBranch; [exact Hj|exact P2|reflexivity|].
        rewrite (flatten_skipn _ _ _ _ Hn), (at_pos_flatten _ _ _ _ _ H). reflexivity.
    + rewrite app_assoc.
      apply MovesBack with (st1 := st1 ++ [(Branch cs, Z.of_nat i)]) (st2 := st2 ++ [(Branch cs, Z.of_nat i)]).
      * rewrite prev_up_app, Up. reflexivity.
      * exact (go_last_app _ _ _ _ Down).
      * eapply AtBranch; [exact Hn|exact P|reflexivity|reflexivity].
Qed.

(** how prev() and last() end: the leaf on top is not empty, so the repaired code does not move on *)
Lemma kv_at_pos_back t st b e a (fixed : bool) (alt : res (stack * kv)) : at_pos t st b e a ->
  match st with
  | (t0, _) :: _ :: _ => if fixed && (count t0 =? 0)%Z then alt else let? x := key_value st in Ok (st, x)
  | _ => let? x := key_value st in Ok (st, x)
  end = Ok (st, kv_of e).
Proof.
  intros P. destruct (at_pos_top _ _ _ _ _ P) as (es & i & tl & -> & Hn).
  destruct (key_value_leaf es i tl e Hn) as [C K]. rewrite C, K, andb_false_r. destruct tl; reflexivity.
Qed.

Lemma last_good t fuel : good t -> depth t <= fuel ->
  exists st b e, last_ true fuel t = Ok (st, kv_of e) /\ at_pos t st b e [].
Proof.
  intros G F. destruct (go_last_good fuel t G F) as (st & b & e & E & P). exists st, b, e. split; [|exact P].
  unfold last_. rewrite E. cbn [bindr]. apply (kv_at_pos_back _ _ _ _ _ true _ P).
Qed.

Definition rel (t : tree) (st : stack) (p : lpos) : Prop :=
  match p with
  | Unset => st = []
  | At i => (exists b e a, at_pos t st b e a /\ length b = i) \/
            (i = length (flatten t) /\ exists b e, past_leaf t st b e [])
  end.

Lemma rel_at t st b e a : at_pos t st b e a -> rel t st (At (length b)).
Proof. intros P. left. exists b, e, a. split; [exact P|reflexivity]. Qed.

Lemma rel_past t st b e : past_leaf t st b e [] -> rel t st (At (length (flatten t))).
Proof. intros PL. right. split; [reflexivity|]. exists b, e. exact PL. Qed.

Definition refines (t : tree) (p : lpos) (c : call) (r : res (stack * kv)) : Prop :=
  exists st, (let? x := r in Ok (fst x, api_kv (snd x))) = Ok (st, snd (list_call (flatten t) p c)) /\
             rel t st (fst (list_call (flatten t) p c)).

Lemma refines_at t st b e a p c r : at_pos t st b e a -> r = Ok (st, kv_of e) ->
  list_call (flatten t) p c = (At (length b), show (nth_error (flatten t) (length b))) -> refines t p c r.
Proof.
  intros P -> LC. exists st. rewrite LC. cbn [bindr fst snd]. split; [|exact (rel_at _ _ _ _ _ P)].
  rewrite (at_pos_flatten _ _ _ _ _ P), nth_error_app2, Nat.sub_diag, api_kv_show by apply le_n. reflexivity.
Qed.

Lemma refines_nil t st p' p c r : rel t st p' -> r = Ok (st, None) ->
  list_call (flatten t) p c = (p', (None, None)) -> refines t p c r.
Proof. intros R -> LC. exists st. rewrite LC. split; [reflexivity|exact R]. Qed.

Lemma first_refines t fuel p : good t -> depth t <= fuel -> refines t p CFirst (first_ fuel t).
Proof.
  intros G F. destruct (first_good t fuel G F) as (st & e & a & E & P).
  apply (refines_at _ _ _ _ _ _ _ _ P E). reflexivity.
Qed.

Lemma last_refines t fuel p : good t -> depth t <= fuel -> refines t p CLast (last_ true fuel t).
Proof.
  intros G F. destruct (last_good t fuel G F) as (st & b & e & E & P).
  apply (refines_at _ _ _ _ _ _ _ _ P E). cbn [list_call]. rewrite (at_pos_len _ _ _ _ _ P). cbn [length].
  rewrite Nat.add_1_r. reflexivity.
Qed.

Lemma next_refines t fuel st p : good t -> depth t <= fuel -> rel t st p -> refines t p CNext (next_ fuel st).
Proof.
  intros G F R. destruct p as [|n].
  - cbn in R. subst st. destruct fuel as [|f]; [pose proof (depth_pos t); lia|]. apply (refines_nil t [] Unset); reflexivity.
  - pose proof R as [(b & e & a & P & <-)|(-> & b & e & PL)].
    + pose proof (at_pos_len _ _ _ _ _ P) as Len. pose proof (next_good _ _ st _ _ _ fuel P eq_refl G F) as N.
      destruct a as [|e' a']; cbn [length] in Len.
      * apply (refines_nil t st _ _ _ _ R N). cbn [list_call]. rewrite (proj2 (Nat.ltb_ge _ _)) by lia. reflexivity.
      * destruct N as (st2 & N & P2). apply (refines_at _ _ _ _ _ _ _ _ P2 N). cbn [list_call].
        rewrite (proj2 (Nat.ltb_lt _ _)), app_length, Nat.add_1_r by lia. reflexivity.
    + apply (refines_nil t st _ _ _ _ R (next_past _ _ _ _ _ fuel PL G F)).
      cbn [list_call]. rewrite (proj2 (Nat.ltb_ge _ _)) by lia. reflexivity.
Qed.

Lemma prev_refines t fuel st p : good t -> depth t <= fuel -> rel t st p -> refines t p CPrev (prev_ true fuel t st).
Proof.
  intros G F R. destruct fuel as [|f]; [pose proof (depth_pos t); lia|]. destruct p as [|i].
  - cbn in R. subst st. apply (refines_nil t [] Unset); reflexivity.
  - destruct R as [(b & e & a & P & <-)|(-> & b & e & es & j & tl & -> & L & P)].
    + destruct (prev_step _ _ _ _ _ _ P G F) as [Up|b' e' st1 st2 Up Down P2]; cbn [prev_]; rewrite Up.
      * (* at the first element prev() calls first() and returns nil *)
        destruct (first_good t (S f) G F) as (st2 & e0 & a0 & E & P2). rewrite E.
        apply (refines_nil t st2 (At 0) _ _ _ (rel_at _ _ _ _ _ P2)); reflexivity.
      * rewrite Down. cbn [bindr]. apply (refines_at _ _ _ _ _ _ _ _ P2 (kv_at_pos_back _ _ _ _ _ true _ P2)).
        rewrite app_length, Nat.add_1_r. reflexivity.
    + (* just past the last element: prev() steps back onto it *)
      apply (refines_at _ _ _ _ _ _ _ _ P).
      * cbn [prev_]. rewrite prev_up_pos. cbn [go_last is_leaf bindr]. apply (kv_at_pos_back _ _ _ _ _ true _ P).
      * rewrite (at_pos_len _ _ _ _ _ P). cbn [length]. rewrite Nat.add_1_r. reflexivity.
Qed.

Lemma seek_refines t fuel k p : good t -> wf t = true -> depth t <= fuel -> refines t p (CSeek k) (seek_ fuel t k).
Proof.
  intros G W F. destruct (search_good k fuel t None None [] G W F) as (st & E & Post). rewrite app_nil_r in E.
  destruct Post as [(b & e & a & P & Hb & He)|(b & e & a & PL & Hb & Ha)].
  - assert (J : first_ge k (keys (flatten t)) = length b)
      by (rewrite (at_pos_flatten _ _ _ _ _ P); exact (fg_app k b (e :: a) Hb He)).
    apply (refines_at _ _ _ _ _ _ _ _ P (seek_at _ _ _ _ _ _ _ E P)). cbn [list_call]. rewrite J. reflexivity.
  - pose proof PL as (es & i & tl & _ & _ & P). pose proof (at_pos_flatten _ _ _ _ _ P) as Fl.
    assert (J : first_ge k (keys (flatten t)) = length (b ++ [e])).
    { rewrite Fl. change (e :: a) with ([e] ++ a). rewrite app_assoc. apply (fg_app k (b ++ [e]) a Hb).
      destruct Ha; [exact I|assumption]. }
    rewrite (seek_past _ _ _ _ _ _ _ E PL). pose proof (next_past _ _ _ _ _ fuel PL G F) as N. destruct a as [|e' a'].
    + rewrite <- Fl in J. apply (refines_nil t st _ _ _ _ (rel_past _ _ _ _ PL) N).
      cbn [list_call]. rewrite J, (proj2 (nth_error_None _ _) (le_n _)). reflexivity.
    + destruct N as (st2 & N & P2). apply (refines_at _ _ _ _ _ _ _ _ P2 N). cbn [list_call]. rewrite J. reflexivity.
Qed.

Lemma step t fuel : good t -> wf t = true -> depth t <= fuel -> forall st p c, rel t st p ->
  exists st', api_call true fuel t st c = Ok (st', snd (list_call (flatten t) p c)) /\
              rel t st' (fst (list_call (flatten t) p c)).
Proof.
  intros G W F st p c R. unfold api_call.
  destruct c as [| | | |k];
    [apply first_refines|apply last_refines|apply next_refines|apply prev_refines|apply seek_refines]; assumption.
Qed.

Lemma run_refines t fuel : good t -> wf t = true -> depth t <= fuel -> forall cs st p, rel t st p ->
  api_run true fuel t st cs = Ok (list_run (flatten t) p cs).
Proof.
  intros G W F. induction cs as [|c cs IH]; intros st p R; [reflexivity|].
  destruct (step t fuel G W F st p c R) as (st' & E & R').
  rewrite api_run_cons, E. cbn [bindr fst snd]. cbn [list_run].
  destruct (list_call (flatten t) p c) as [p' out]. cbn [fst snd] in *. rewrite (IH st' p' R'). reflexivity.
Qed.

Lemma good_of_wf t : wf t = true -> has_empty_leaf t = false -> flatten t <> [] -> good t.
Proof. intros W H Fne. apply good_of_hyps; [exact H|exact (wfb_branches_nonempty t None None W)|exact Fne]. Qed.

(** mixed navigation: EVERY call sequence (also one that starts with Next/Prev on the unpositioned cursor,
    which returns nil and stays unpositioned in both the code and the list), with any fuel >= depth *)
Theorem nav_refines_list_fuel : forall t fuel cs, wf t = true -> has_empty_leaf t = false -> flatten t <> [] ->
  depth t <= fuel -> api_run true fuel t [] cs = Ok (list_run (flatten t) Unset cs).
Proof.
  intros t fuel cs W H Fne F. apply run_refines; [apply good_of_wf; assumption|exact W|exact F|reflexivity].
Qed.

Theorem nav_refines_list : forall t cs, wf t = true -> has_empty_leaf t = false -> flatten t <> [] ->
  api_run true (fuel_for t) t [] cs = Ok (list_run (flatten t) Unset cs).
Proof. intros t cs W H Fne. apply nav_refines_list_fuel; [assumption..|apply depth_le_fuel_for]. Qed.

(** call sequences that begin with First, Last or Seek: a special case, the restriction is not needed *)
Definition starts_positioned (cs : list call) : Prop :=
  match cs with CFirst :: _ | CLast :: _ | CSeek _ :: _ => True | _ => False end.

Corollary nav_refines_list_positioned : forall t cs, wf t = true -> has_empty_leaf t = false -> flatten t <> [] ->
  starts_positioned cs -> api_run true (fuel_for t) t [] cs = Ok (list_run (flatten t) Unset cs).
Proof. intros t cs W H Fne _. apply nav_refines_list; assumption. Qed.

Corollary last_prev_refines_list : forall t, wf t = true -> has_empty_leaf t = false -> flatten t <> [] ->
  api_run true (fuel_for t) t [] (CLast :: repeat CPrev (length (flatten t))) =
  Ok (list_run (flatten t) Unset (CLast :: repeat CPrev (length (flatten t)))).
Proof. intros t W H Fne. apply nav_refines_list; assumption. Qed.

Theorem last_prev_enumerates : forall t, wf t = true -> has_empty_leaf t = false -> flatten t <> [] ->
  api_run true (fuel_for t) t [] (CLast :: repeat CPrev (length (flatten t))) =
  Ok (map (fun e => show (Some e)) (rev (flatten t)) ++ [(None, None)]).
Proof.
  intros t W H Fne. rewrite last_prev_refines_list by assumption.
  rewrite list_last_prev_enumerates by assumption. reflexivity.
Qed.

Corollary first_next_refines_list : forall t cs, wf t = true -> has_empty_leaf t = false -> flatten t <> [] ->
  cs = CFirst :: repeat CNext (length (flatten t)) ->
  api_run true (fuel_for t) t [] cs = Ok (list_run (flatten t) Unset cs).
Proof. intros t cs W H Fne _. apply nav_refines_list; assumption. Qed.

Theorem first_next_enumerates_wf : forall t, wf t = true -> has_empty_leaf t = false -> flatten t <> [] ->
  api_run true (fuel_for t) t [] (CFirst :: repeat CNext (length (flatten t))) =
  Ok (map (fun e => show (Some e)) (flatten t) ++ [(None, None)]).
Proof.
  intros t W H Fne. rewrite nav_refines_list by assumption.
  rewrite list_first_next_enumerates by assumption. reflexivity.
Qed.

Theorem seek_finds_first_ge : forall t k, wf t = true -> has_empty_leaf t = false -> flatten t <> [] ->
  api_run true (fuel_for t) t [] [CSeek k] = Ok (list_run (flatten t) Unset [CSeek k]).
Proof. intros t k W H Fne. apply nav_refines_list; assumption. Qed.

(** what the list says for Seek: the element at index j, where everything before j is < k and the element at j
    (if any) is >= k; j = length means "past the end" and Seek returns nil *)
Theorem seek_meaning : forall t k, wf t = true -> has_empty_leaf t = false -> flatten t <> [] ->
  let l := flatten t in
  let j := first_ge k (keys l) in
  api_run true (fuel_for t) t [] [CSeek k] = Ok [show (nth_error l j)] /\
  j <= length l /\
  (forall i e, i < j -> nth_error l i = Some e -> blt (key e) k = true) /\
  (forall e, nth_error l j = Some e -> blt (key e) k = false).
Proof.
  intros t k W H Fne l j. split; [|split; [|split]].
  - rewrite seek_finds_first_ge by assumption. reflexivity.
  - pose proof (fg_len k (keys l)) as X. rewrite map_length in X. exact X.
  - intros i e L Hn. exact (fg_lt k (keys l) i _ L (map_nth_error _ _ _ Hn)).
  - intros e Hn. exact (fg_ge k (keys l) _ (map_nth_error _ _ _ Hn)).
Qed.

Theorem flatten_strictly_increasing : forall t, wf t = true -> has_empty_leaf t = false -> flatten t <> [] ->
  str_inc (keys (flatten t)) = true.
Proof.
  intros t W H Fne. apply (flatten_sorted t None None); [apply good_of_wf; assumption|exact W].
Qed.

Theorem seek_rest_ge : forall t k i e, wf t = true -> has_empty_leaf t = false -> flatten t <> [] ->
  first_ge k (keys (flatten t)) <= i -> nth_error (flatten t) i = Some e -> blt (key e) k = false.
Proof.
  intros t k i e W H Fne L Hn.
  exact (fg_after k (keys (flatten t)) (flatten_strictly_increasing t W H Fne) i _ L (map_nth_error _ _ _ Hn)).
Qed.

Print Assumptions nav_refines_list.
Print Assumptions nav_refines_list_fuel.
Print Assumptions nav_refines_list_positioned.
Print Assumptions last_prev_enumerates.
Print Assumptions last_prev_refines_list.
Print Assumptions first_next_enumerates_wf.
Print Assumptions first_next_refines_list.
Print Assumptions seek_finds_first_ge.
Print Assumptions seek_meaning.
Print Assumptions flatten_strictly_increasing.
Print Assumptions seek_rest_ge.
