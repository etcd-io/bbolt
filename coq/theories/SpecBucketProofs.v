(** Proofs about Spec.v, part 2: what each Bucket/Tx operation does to the tree of buckets, and what it
    leaves alone (frame properties), for arbitrary nesting; errors change nothing, and every call keeps the
    keys in order at every level. *)
From Bbolt Require Import Base Consts Spec SpecProofs.

Definition bytes_eq_dec : forall a b : bytes, {a = b} + {a <> b} := list_eq_dec N.eq_dec.
Definition path_eq_dec : forall p q : list bytes, {p = q} + {p <> q} := list_eq_dec bytes_eq_dec.

Lemma bcmp_eq_iff a b : bcmp a b = Eq <-> a = b.
Proof. split; [apply bcmp_eq | intros ->; apply bcmp_refl]. Qed.

Lemma lookup_In k l : forall e, lookup k l = Some e -> In (k, e) l.
Proof.
  induction l as [|[k' e'] l IH]; intros e H; cbn [lookup] in H; [discriminate|].
  destruct (bcmp k k') eqn:E; try discriminate.
  - apply bcmp_eq in E. subst k'. inversion H; subst. left; reflexivity.
  - right. now apply IH.
Qed.

Lemma In_lookup_sorted l : keys_sorted l = true -> forall k e, In (k, e) l -> lookup k l = Some e.
Proof.
  induction l as [|[k0 e0] l IH]; intros Hs k e Hin; [destruct Hin|].
  cbn [lookup]. destruct Hin as [Heq|Hin].
  - inversion Heq; subst. now rewrite bcmp_refl.
  - pose proof (sorted_head_lt _ _ _ Hs k e Hin) as Hlt. apply bcmp_gt_lt in Hlt. rewrite Hlt.
    apply IH; [|exact Hin]. apply keys_sorted_cons in Hs. tauto.
Qed.

(** * the visible part of a bucket: its sequence, its keys, its plain values, and WHICH keys are nested
    buckets - but not what is inside them *)
Definition erase_e (e : entry) : entry := match e with Val v => Val v | Sub _ _ => Sub 0 [] end.
Definition erase (l : list (bytes * entry)) : list (bytes * entry) :=
  map (fun ke => (fst ke, erase_e (snd ke))) l.
Definition view (b : bucket) : bucket := (fst b, erase (snd b)).

Lemma lookup_erase k l : lookup k (erase l) = option_map erase_e (lookup k l).
Proof.
  induction l as [|[k' e'] l IH]; [reflexivity|].
  cbn [erase map fst snd lookup]. destruct (bcmp k k'); try reflexivity. exact IH.
Qed.

Lemma insert_erase k e l : erase (insert k e l) = insert k (erase_e e) (erase l).
Proof.
  induction l as [|[k' e'] l IH]; [reflexivity|].
  cbn [erase map fst snd insert]. destruct (bcmp k k'); try reflexivity.
  cbn [map fst snd]. f_equal. exact IH.
Qed.

Lemma remove_erase k l : erase (remove k l) = remove k (erase l).
Proof.
  induction l as [|[k' e'] l IH]; [reflexivity|].
  cbn [erase map fst snd remove]. destruct (bcmp k k'); try reflexivity.
  cbn [map fst snd]. f_equal. exact IH.
Qed.

Lemma keys_sorted_erase l : keys_sorted (erase l) = keys_sorted l.
Proof. apply (keys_sorted_map (fun ke => erase_e (snd ke))). Qed.

Lemma listing_view b : listing (view b) = listing b.
Proof.
  unfold listing, view, erase. cbn [snd]. rewrite map_map. apply map_ext.
  intros [k [v|s es]]; reflexivity.
Qed.

Lemma key_n_view b : key_n (view b) = key_n b.
Proof.
  unfold key_n, view, erase. cbn [snd]. f_equal.
  induction (snd b) as [|[k [v|s es]] l IH]; cbn [map filter fst snd erase_e length]; auto.
Qed.

Lemma view_sorted b1 b2 : view b1 = view b2 -> keys_sorted (snd b1) = keys_sorted (snd b2).
Proof. intros [= _ H]. now rewrite <- (keys_sorted_erase (snd b1)), H, keys_sorted_erase. Qed.

Definition same_view (q : list bytes) (r' r : bucket) : Prop :=
  option_map view (resolve q r') = option_map view (resolve q r).

Lemma same_view_of_eq q r' r : resolve q r' = resolve q r -> same_view q r' r.
Proof. unfold same_view. now intros ->. Qed.

Lemma same_view_none {q r' r} : same_view q r' r -> (resolve q r' = None <-> resolve q r = None).
Proof. unfold same_view. destruct (resolve q r'), (resolve q r); cbn [option_map]; intros V; split; congruence. Qed.

Lemma get_view q k r :
  get q k r = match option_map view (resolve q r) with Some vb => get [] k vb | None => (ENoBucket, None) end.
Proof.
  unfold get. destruct (resolve q r) as [b|]; [|reflexivity]. cbn [option_map resolve view snd].
  rewrite lookup_erase. now destruct (lookup k (snd b)) as [[]|].
Qed.

Lemma same_view_get q k r' r : same_view q r' r -> get q k r' = get q k r.
Proof. intros V. rewrite !get_view. now rewrite V. Qed.

Lemma sequence_view q r :
  sequence q r = match option_map view (resolve q r) with Some vb => (ENone, fst vb) | None => (ENoBucket, 0) end.
Proof. unfold sequence. now destruct (resolve q r). Qed.

Lemma same_view_sequence q r' r : same_view q r' r -> sequence q r' = sequence q r.
Proof. intros V. rewrite !sequence_view. now rewrite V. Qed.

(** with [x], [y] what two paths resolve to, the second hypothesis is [same_view] *)
Lemma view_map {A} (f : bucket -> A) {x y} : (forall b, f (view b) = f b) ->
  option_map view x = option_map view y -> option_map f x = option_map f y.
Proof.
  intros Hf. destruct x as [b'|], y as [b|]; cbn [option_map]; try discriminate; [|reflexivity].
  intros V. rewrite <- (Hf b'), <- (Hf b). congruence.
Qed.

Definition extends (p q : list bytes) : Prop := exists r, q = p ++ r.

Lemma is_prefix_cons a p b q : is_prefix (a :: p) (b :: q) = beq a b && is_prefix p q.
Proof.
  unfold is_prefix. cbn [length combine forallb fst snd Nat.leb].
  destruct (beq a b), (length p <=? length q)%nat; reflexivity.
Qed.

Lemma is_prefix_spec p : forall q, is_prefix p q = true <-> extends p q.
Proof.
  induction p as [|a p IH]; intros q.
  - split; [intros _; exists q; reflexivity | reflexivity].
  - destruct q as [|b q].
    + split; [discriminate | intros [r H]; discriminate].
    + rewrite is_prefix_cons, andb_true_iff, beq_eq, IH. split.
      * intros [-> [r ->]]. exists r. reflexivity.
      * intros [r H]. cbn [app] in H. inversion H; subst. split; [reflexivity | exists r; reflexivity].
Qed.

Lemma extends_decidable p q : extends p q \/ ~ extends p q.
Proof.
  destruct (is_prefix p q) eqn:E.
  - left. now apply is_prefix_spec.
  - right. intros H. apply is_prefix_spec in H. congruence.
Qed.

Lemma is_prefix_refl p : is_prefix p p = true.
Proof. apply is_prefix_spec. exists []. now rewrite app_nil_r. Qed.

Lemma extends_snoc p q n : extends p (q ++ [n]) -> p = q ++ [n] \/ extends p q.
Proof.
  intros [r E]. destruct r as [|x r _] using rev_ind.
  - left. now rewrite app_nil_r in E.
  - right. exists r. rewrite app_assoc in E. now apply app_inj_tail in E.
Qed.

Lemma update_self p : forall root b, resolve p root = Some b -> update p b root = root.
Proof. intros root b H. apply update_noop. congruence. Qed.

(** [update] changes only the entry under the first name of [p], which was a nested bucket and stays one *)
Theorem update_view_frame p q nb root : ~ extends p q -> same_view q (update p nb root) root.
Proof.
  revert q root. induction p as [|a p IH]; intros q root Hne; [destruct Hne; now exists q|].
  unfold same_view. cbn [update]. destruct (lookup a (snd root)) as [[v|s es]|] eqn:L; try reflexivity.
  destruct (update p nb (s, es)) as [s' es'] eqn:U. destruct q as [|b q]; cbn [resolve option_map fst snd].
  - unfold view. cbn [fst snd]. rewrite insert_erase, insert_present; [reflexivity|]. now rewrite lookup_erase, L.
  - destruct (bytes_eq_dec b a) as [->|Hba].
    + rewrite lookup_insert_same, L, <- U. apply IH. intros [r ->]. apply Hne. now exists r.
    + now rewrite (lookup_insert_neq a b _ _ Hba).
Qed.

Lemma update_frame p b nb root q : resolve p root = Some b -> q <> p ->
  (forall a r, q = p ++ a :: r -> resolve (a :: r) nb = resolve (a :: r) b) -> same_view q (update p nb root) root.
Proof.
  intros R Hq Hb. destruct (extends_decidable p q) as [[r ->]|Hne]; [|now apply update_view_frame].
  destruct r as [|a r]; [now rewrite app_nil_r in Hq|].
  apply same_view_of_eq. rewrite (resolve_update_through p _ nb root b R), (resolve_through p _ root b R). now apply Hb.
Qed.

Definition agree_except (n : bytes) (l' l : list (bytes * entry)) : Prop :=
  forall a, a <> n -> lookup a l' = lookup a l.

Theorem update_local_frame p n b nb root q :
  resolve p root = Some b -> agree_except n (snd nb) (snd b) ->
  q <> p -> ~ extends (p ++ [n]) q -> same_view q (update p nb root) root.
Proof.
  intros R Hag Hq Hn. apply (update_frame p b); auto. intros a r ->. cbn [resolve]. rewrite Hag; [reflexivity|].
  intros ->. apply Hn. exists r. now rewrite <- app_assoc.
Qed.

Lemma agree_except_insert n e l : agree_except n (insert n e l) l.
Proof. intros a Ha. now apply lookup_insert_neq. Qed.

Lemma agree_except_remove n l : keys_sorted l = true -> agree_except n (remove n l) l.
Proof. intros Hs a Ha. apply lookup_remove_other; [exact Hs | now apply bcmp_neq]. Qed.

Lemma agree_except_replace n e e0 l : lookup n l = Some e0 -> agree_except n (insert n e l) l.
Proof. intros _. apply agree_except_insert. Qed.

(** * edits of one key.  CreateBucket, DeleteBucket, Put and Delete (and the two halves of MoveBucket) all do
    the same thing to the tree: [edits p n b new root root'] - the bucket [b] at [p] is replaced by one with the
    same sequence that holds [new] under [n] (nothing, if [None]) and is [b] at every other key.  What such a
    step does and leaves alone is proved once, here; each operation then only has to be shown to be one. *)
Definition edits (p : list bytes) (n : bytes) (b : bucket) (new : option entry) (root root' : bucket) : Prop :=
  resolve p root = Some b /\
  exists l, lookup n l = new /\ agree_except n l (snd b) /\ root' = update p (fst b, l) root.

Lemma edits_insert {p b root} n e : resolve p root = Some b ->
  edits p n b (Some e) root (update p (fst b, insert n e (snd b)) root).
Proof.
  intros R. split; [exact R|]. exists (insert n e (snd b)).
  split; [apply lookup_insert_same|]. split; [apply agree_except_insert | reflexivity].
Qed.

Definition sorted_at (p : list bytes) (root : bucket) : Prop :=
  forall b, resolve p root = Some b -> keys_sorted (snd b) = true.

Lemma edits_remove {p b root} n : sorted_at p root -> resolve p root = Some b ->
  edits p n b None root (update p (fst b, remove n (snd b)) root).
Proof.
  intros Hs R. split; [exact R|]. exists (remove n (snd b)). specialize (Hs b R).
  split; [now apply lookup_remove_same|]. split; [now apply agree_except_remove | reflexivity].
Qed.

Lemma edits_same_bucket {p n b new root root'} : edits p n b new root root' ->
  exists b', resolve p root = Some b /\ resolve p root' = Some b' /\ fst b' = fst b /\
             lookup n (snd b') = new /\ forall k, k <> n -> lookup k (snd b') = lookup k (snd b).
Proof.
  intros (R & l & N & A & ->). exists (fst b, l). split; [exact R|].
  split; [apply (resolve_update p _ root b R)|]. split; [reflexivity|]. split; [exact N | exact A].
Qed.

Lemma edits_below_key {p n b new root root'} r : edits p n b new root root' ->
  resolve (p ++ n :: r) root' = match new with Some (Sub s es) => resolve r (s, es) | _ => None end.
Proof.
  intros (R & l & N & A & ->). rewrite (resolve_update_through p _ _ root b R). cbn [resolve snd]. now rewrite N.
Qed.

Lemma edits_frame_below {p n b new root root'} a r : edits p n b new root root' -> a <> n ->
  resolve (p ++ a :: r) root' = resolve (p ++ a :: r) root.
Proof.
  intros (R & l & N & A & ->) Ha. rewrite (resolve_update_through p _ _ root b R), (resolve_through p _ root b R).
  cbn [resolve snd]. now rewrite (A a Ha).
Qed.

Lemma edits_frame {p n b new root root'} q : edits p n b new root root' ->
  q <> p -> ~ extends (p ++ [n]) q -> same_view q root' root.
Proof. intros (R & l & N & A & ->). now apply (update_local_frame p n b). Qed.

(** When [n] names no bucket before or after (Put, Delete), nothing lies below [p ++ [n]] and the frame is all
    of the tree but key [n] of [p]. *)
Definition plain (oe : option entry) : Prop := match oe with Some (Sub _ _) => False | _ => True end.

Lemma edits_plain_below {p n b new root root'} r : edits p n b new root root' ->
  plain (lookup n (snd b)) -> plain new ->
  resolve (p ++ n :: r) root' = None /\ resolve (p ++ n :: r) root = None.
Proof.
  intros E Po Pn. rewrite (edits_below_key r E). destruct E as (R & _).
  rewrite (resolve_through p _ root b R). cbn [resolve].
  split; [now destruct new as [[]|] | now destruct (lookup n (snd b)) as [[]|]].
Qed.

Lemma edits_plain_frame_below {p n b new root root'} a r : edits p n b new root root' ->
  plain (lookup n (snd b)) -> plain new -> resolve (p ++ a :: r) root' = resolve (p ++ a :: r) root.
Proof.
  intros E Po Pn. destruct (bytes_eq_dec a n) as [->|Ha]; [|now apply (edits_frame_below a r E)].
  now destruct (edits_plain_below r E Po Pn) as [-> ->].
Qed.

Lemma edits_plain_frame {p n b new root root'} q : edits p n b new root root' ->
  plain (lookup n (snd b)) -> plain new -> q <> p -> same_view q root' root.
Proof.
  intros E Po Pn Hq. destruct (extends_decidable (p ++ [n]) q) as [[r ->]|Hn]; [|now apply (edits_frame q E)].
  apply same_view_of_eq. rewrite <- app_assoc. cbn [app]. now destruct (edits_plain_below r E Po Pn) as [-> ->].
Qed.

Lemma edits_plain_get_frame {p n b new root root'} q k : edits p n b new root root' ->
  plain (lookup n (snd b)) -> plain new -> (q <> p \/ k <> n) -> get q k root' = get q k root.
Proof.
  intros E Po Pn Hd. destruct (path_eq_dec q p) as [->|Hq].
  - destruct Hd as [Hd|Hd]; [contradiction|].
    destruct (edits_same_bucket E) as (b' & R & R' & _ & _ & F).
    unfold get. now rewrite R, R', (F k Hd).
  - apply same_view_get. now apply (edits_plain_frame q E).
Qed.

Lemma edits_plain_sequence_frame {p n b new root root'} q : edits p n b new root root' ->
  plain (lookup n (snd b)) -> plain new -> sequence q root' = sequence q root.
Proof.
  intros E Po Pn. destruct (path_eq_dec q p) as [->|Hq].
  - destruct (edits_same_bucket E) as (b' & R & R' & F & _). unfold sequence. now rewrite R, R', F.
  - apply same_view_sequence. now apply (edits_plain_frame q E).
Qed.

(** * what every operation promises: an error leaves the tree alone; success means [P] *)
Definition outcome (e : err) (root root' : bucket) (P : Prop) : Prop :=
  match e with ENone => P | _ => root' = root end.

Lemma outcome_error {e root root' P} : outcome e root root' P -> e <> ENone -> root' = root.
Proof. destruct e; cbn; intros H Hne; [now destruct Hne | exact H..]. Qed.

Lemma create_bucket_inv [p n root e root'] : create_bucket p n root = (e, root') ->
  outcome e root root' (exists b, resolve p root = Some b /\ (len n =? 0) = false /\ lookup n (snd b) = None /\
                                  root' = update p (fst b, insert n (Sub 0 []) (snd b)) root).
Proof.
  unfold create_bucket. destruct (resolve p root) as [b|]; [|intros [= <- <-]; reflexivity].
  destruct (len n =? 0); [intros [= <- <-]; reflexivity|].
  destruct (lookup n (snd b)) as [[v|s es]|] eqn:L; intros [= <- <-]; try reflexivity.
  exact (ex_intro _ b (conj eq_refl (conj eq_refl (conj L eq_refl)))).
Qed.

Lemma create_bucket_edits {p n root root'} : create_bucket p n root = (ENone, root') ->
  exists b, lookup n (snd b) = None /\ (len n =? 0) = false /\ edits p n b (Some (Sub 0 [])) root root'.
Proof.
  intros H. destruct (create_bucket_inv H) as (b & R & Hn & L & ->).
  exists b. split; [exact L|]. split; [exact Hn | now apply edits_insert].
Qed.

Theorem create_bucket_new p n root root' : create_bucket p n root = (ENone, root') ->
  resolve (p ++ [n]) root' = Some (0, []).
Proof.
  intros H. destruct (create_bucket_edits H) as (b & _ & _ & E). exact (edits_below_key [] E).
Qed.

Theorem create_bucket_new_leaf p n root root' a r : create_bucket p n root = (ENone, root') ->
  resolve (p ++ n :: a :: r) root' = None.
Proof.
  intros H. destruct (create_bucket_edits H) as (b & _ & _ & E). exact (edits_below_key (a :: r) E).
Qed.

Theorem create_bucket_parent p n root root' : create_bucket p n root = (ENone, root') ->
  exists b b', resolve p root = Some b /\ resolve p root' = Some b' /\ fst b' = fst b /\
               lookup n (snd b) = None /\ lookup n (snd b') = Some (Sub 0 []) /\
               forall k, k <> n -> lookup k (snd b') = lookup k (snd b).
Proof.
  intros H. destruct (create_bucket_edits H) as (b & L & _ & E).
  destruct (edits_same_bucket E) as (b' & R & R' & F & N & A).
  exact (ex_intro _ b (ex_intro _ b' (conj R (conj R' (conj F (conj L (conj N A))))))).
Qed.

Theorem create_bucket_frame p n root root' q : create_bucket p n root = (ENone, root') ->
  q <> p -> ~ extends (p ++ [n]) q -> same_view q root' root.
Proof. intros H. destruct (create_bucket_edits H) as (b & _ & _ & E). exact (edits_frame q E). Qed.

Theorem create_bucket_frame_below p n root root' a r : create_bucket p n root = (ENone, root') ->
  a <> n -> resolve (p ++ a :: r) root' = resolve (p ++ a :: r) root.
Proof.
  intros H. destruct (create_bucket_edits H) as (b & _ & _ & E). exact (edits_frame_below a r E).
Qed.

Theorem create_bucket_twice p n root root' : create_bucket p n root = (ENone, root') ->
  create_bucket p n root' = (EBucketExists, root').
Proof.
  intros H. destruct (create_bucket_edits H) as (b & _ & Hn & E).
  destruct (edits_same_bucket E) as (b' & _ & R' & _ & N & _).
  unfold create_bucket. now rewrite R', Hn, N.
Qed.

Lemma create_bucket_if_not_exists_inv [p n root e root'] : create_bucket_if_not_exists p n root = (e, root') ->
  outcome e root root' ((create_bucket p n root = (ENone, root')) \/
                        (root' = root /\ exists s es, resolve (p ++ [n]) root = Some (s, es))).
Proof.
  unfold create_bucket_if_not_exists, create_bucket. destruct (resolve p root) as [b|] eqn:R; [|intros [= <- <-]; reflexivity].
  destruct (len n =? 0); [intros [= <- <-]; reflexivity|].
  destruct (lookup n (snd b)) as [[v|s es]|] eqn:L; intros [= <- <-]; try reflexivity; [right | now left].
  split; [reflexivity|]. exists s, es. exact (resolve_sub p n [] root b s es R L).
Qed.

Theorem create_bucket_if_not_exists_spec p n root root' :
  create_bucket_if_not_exists p n root = (ENone, root') ->
  (create_bucket p n root = (ENone, root')) \/
  (root' = root /\ exists s es, resolve (p ++ [n]) root = Some (s, es)).
Proof. apply create_bucket_if_not_exists_inv. Qed.

Lemma delete_bucket_inv [p n root e root'] : delete_bucket p n root = (e, root') ->
  outcome e root root' (exists b s es, resolve p root = Some b /\ lookup n (snd b) = Some (Sub s es) /\
                                       root' = update p (fst b, remove n (snd b)) root).
Proof.
  unfold delete_bucket. destruct (resolve p root) as [b|]; [|intros [= <- <-]; reflexivity].
  destruct (lookup n (snd b)) as [[v|s es]|] eqn:L; intros [= <- <-]; try reflexivity.
  exact (ex_intro _ b (ex_intro _ s (ex_intro _ es (conj eq_refl (conj L eq_refl))))).
Qed.

Lemma delete_bucket_edits {p n root root'} : sorted_at p root -> delete_bucket p n root = (ENone, root') ->
  exists b, edits p n b None root root'.
Proof.
  intros Hs H. destruct (delete_bucket_inv H) as (b & s & es & R & _ & ->). exists b. now apply edits_remove.
Qed.

Theorem delete_bucket_subtree_gone p n root root' r : sorted_at p root -> delete_bucket p n root = (ENone, root') ->
  resolve (p ++ n :: r) root' = None.
Proof. intros Hs H. destruct (delete_bucket_edits Hs H) as (b & E). exact (edits_below_key r E). Qed.

Theorem delete_bucket_parent p n root root' : sorted_at p root -> delete_bucket p n root = (ENone, root') ->
  exists b b', resolve p root = Some b /\ resolve p root' = Some b' /\ fst b' = fst b /\
               lookup n (snd b') = None /\
               forall k, k <> n -> lookup k (snd b') = lookup k (snd b).
Proof.
  intros Hs H. destruct (delete_bucket_edits Hs H) as (b & E). exists b. exact (edits_same_bucket E).
Qed.

Theorem delete_bucket_frame p n root root' q : sorted_at p root -> delete_bucket p n root = (ENone, root') ->
  q <> p -> ~ extends (p ++ [n]) q -> same_view q root' root.
Proof. intros Hs H. destruct (delete_bucket_edits Hs H) as (b & E). exact (edits_frame q E). Qed.

Theorem delete_bucket_frame_below p n root root' a r : sorted_at p root -> delete_bucket p n root = (ENone, root') ->
  a <> n -> resolve (p ++ a :: r) root' = resolve (p ++ a :: r) root.
Proof.
  intros Hs H. destruct (delete_bucket_edits Hs H) as (b & E). exact (edits_frame_below a r E).
Qed.

Theorem delete_bucket_twice p n root root' : sorted_at p root -> delete_bucket p n root = (ENone, root') ->
  delete_bucket p n root' = (EBucketNotFound, root').
Proof.
  intros Hs H. destruct (delete_bucket_edits Hs H) as (b & E).
  destruct (edits_same_bucket E) as (b' & _ & R' & _ & N & _). unfold delete_bucket. now rewrite R', N.
Qed.

(** the sortedness hypothesis is needed: in an unsorted parent a second copy of the name may survive *)
Example delete_bucket_needs_sorted :
  let root : bucket := (0, [([2], Sub 0 []); ([1], Val []); ([2], Sub 7 [])]) in
  exists root', delete_bucket [] [2] root = (ENone, root') /\ resolve [[2]] root' = Some (7, []).
Proof. eexists. split; vm_compute; reflexivity. Qed.

(** * MoveBucket: the name is removed from [sb] at [src], then inserted into what is at [dst] by then *)
Inductive moved (src : list bytes) (n : bytes) (dst : list bytes) (root root' : bucket) : Prop :=
| moved_intro sb db s es db1 :
    resolve src root = Some sb -> resolve dst root = Some db -> lookup n (snd sb) = Some (Sub s es) ->
    src <> dst -> ~ extends (src ++ [n]) dst -> lookup n (snd db) = None ->
    resolve dst (update src (fst sb, remove n (snd sb)) root) = Some db1 ->
    root' = update dst (fst db1, insert n (Sub s es) (snd db1)) (update src (fst sb, remove n (snd sb)) root) ->
    moved src n dst root root'.

Lemma move_bucket_inv [src n dst root e root'] : move_bucket src n dst root = (e, root') ->
  outcome e root root' (moved src n dst root root').
Proof.
  unfold move_bucket. destruct (resolve src root) as [sb|] eqn:Rs; [|intros [= <- <-]; reflexivity].
  destruct (resolve dst root) as [db|] eqn:Rd; [|intros [= <- <-]; reflexivity].
  destruct (lookup n (snd sb)) as [[v|s es]|] eqn:Ls; try (intros [= <- <-]; reflexivity).
  destruct (is_prefix src dst && is_prefix dst src) eqn:P1; [intros [= <- <-]; reflexivity|].
  destruct (is_prefix (src ++ [n]) dst) eqn:P2; [intros [= <- <-]; reflexivity|].
  destruct (lookup n (snd db)) as [[v|s2 es2]|] eqn:Ld; try (intros [= <- <-]; reflexivity).
  destruct (resolve dst (update src _ root)) as [db1|] eqn:R1; intros [= <- <-]; [|reflexivity].
  apply (moved_intro _ _ _ _ _ sb db s es db1 Rs Rd Ls); auto.
  - intros ->. rewrite is_prefix_refl in P1. discriminate.
  - intros E. apply is_prefix_spec in E. congruence.
Qed.

Theorem move_bucket_subtree src n dst root root' r : move_bucket src n dst root = (ENone, root') ->
  resolve (dst ++ n :: r) root' = resolve (src ++ n :: r) root.
Proof.
  intros H. destruct (move_bucket_inv H) as [sb db s es db1 Rs _ Ls _ _ _ R1 ->].
  now rewrite (edits_below_key r (edits_insert n (Sub s es) R1)), (resolve_sub src n r root sb s es Rs Ls).
Qed.

Theorem move_bucket_arrives src n dst root root' : move_bucket src n dst root = (ENone, root') ->
  resolve (dst ++ [n]) root' = resolve (src ++ [n]) root /\
  exists s es, resolve (src ++ [n]) root = Some (s, es).
Proof.
  intros H. split; [exact (move_bucket_subtree _ _ _ _ _ [] H)|].
  destruct (move_bucket_inv H) as [sb db s es db1 Rs _ Ls _ _ _ _ _]. exists s, es.
  exact (resolve_sub src n [] root sb s es Rs Ls).
Qed.

(** [dst] is not inside the moved bucket, nor is [src] inside a bucket [n] of [dst]: there is none *)
Lemma moved_apart {src n dst root root'} : moved src n dst root root' ->
  src ++ [n] <> dst /\ ~ extends (dst ++ [n]) src /\ ~ extends (dst ++ [n]) (src ++ [n]).
Proof.
  intros [sb db s es db1 Rs Rd _ Hne Hnp Ld _ _].
  assert (Hnp2 : ~ extends (dst ++ [n]) src).
  { intros [r E]. rewrite E, <- app_assoc, (resolve_through dst _ root db Rd) in Rs.
    cbn [app resolve] in Rs. now rewrite Ld in Rs. }
  split; [|split; [exact Hnp2|]].
  - intros E. apply Hnp. exists []. now rewrite app_nil_r.
  - intros [E|E]%extends_snoc; [apply app_inj_tail in E as [E _]; congruence | contradiction].
Qed.

(** nothing is left at the old place - in every configuration of [src] and [dst] the reference accepts
    (independent paths, [dst] above [src], [dst] below [src] through another name) *)
Theorem move_bucket_src_gone src n dst root root' :
  sorted_at src root -> move_bucket src n dst root = (ENone, root') ->
  resolve (src ++ [n]) root' = None.
Proof.
  intros Hss H. pose proof (move_bucket_inv H) as M. destruct (moved_apart M) as (A & _ & B).
  destruct M as [sb db s es db1 Rs _ _ _ _ _ R1 ->].
  apply (same_view_none (edits_frame _ (edits_insert n (Sub s es) R1) A B)).
  exact (edits_below_key [] (edits_remove n Hss Rs)).
Qed.

Theorem move_bucket_src_subtree_gone src n dst root root' r :
  sorted_at src root -> move_bucket src n dst root = (ENone, root') ->
  resolve (src ++ n :: r) root' = None.
Proof.
  intros Hss H. change (n :: r) with ([n] ++ r). rewrite app_assoc.
  now apply resolve_app_none, (move_bucket_src_gone src n dst root).
Qed.

Theorem move_bucket_frame src n dst root root' q :
  sorted_at src root -> move_bucket src n dst root = (ENone, root') ->
  q <> src -> q <> dst -> ~ extends (src ++ [n]) q -> ~ extends (dst ++ [n]) q -> same_view q root' root.
Proof.
  intros Hss H Hq1 Hq2 Hn1 Hn2. destruct (move_bucket_inv H) as [sb db s es db1 Rs _ _ _ _ _ R1 ->].
  exact (eq_trans (edits_frame q (edits_insert n (Sub s es) R1) Hq2 Hn2)
                  (edits_frame q (edits_remove n Hss Rs) Hq1 Hn1)).
Qed.

Theorem move_bucket_views {src n dst root root'} :
  sorted_at src root -> move_bucket src n dst root = (ENone, root') ->
  exists sb db s es,
    (resolve src root = Some sb /\ lookup n (snd sb) = Some (Sub s es) /\
     option_map view (resolve src root') = Some (view (fst sb, remove n (snd sb)))) /\
    (resolve dst root = Some db /\ lookup n (snd db) = None /\
     option_map view (resolve dst root') = Some (view (fst db, insert n (Sub s es) (snd db)))).
Proof.
  intros Hss H. pose proof (move_bucket_inv H) as M. destruct (moved_apart M) as (_ & Hnp2 & _).
  destruct M as [sb db s es db1 Rs Rd Ls Hne Hnp Ld R1 ->].
  pose proof (edits_remove n Hss Rs) as E1. pose proof (edits_insert n (Sub s es) R1) as E2.
  exists sb, db, s, es. split; (split; [assumption|]); (split; [assumption|]).
  - rewrite (edits_frame src E2 Hne Hnp2). now rewrite (resolve_update src _ root sb Rs).
  - pose proof (edits_frame dst E1 (not_eq_sym Hne) Hnp) as V. unfold same_view in V.
    rewrite R1, Rd in V. injection V as V1 V2.
    rewrite (resolve_update dst _ _ db1 R1). unfold view. cbn [option_map fst snd]. now rewrite !insert_erase, V1, V2.
Qed.

Lemma key_n_remove_sub n s es b : lookup n (snd b) = Some (Sub s es) -> key_n (fst b, remove n (snd b)) = key_n b.
Proof.
  unfold key_n. cbn [snd]. intros H. f_equal. revert H.
  induction (snd b) as [|[k' e'] l IH]; cbn [lookup remove]; [discriminate|].
  destruct (bcmp n k'); try discriminate.
  - now intros [= ->].
  - intros H. cbn [filter snd]. destruct e'; cbn [length]; now rewrite (IH H).
Qed.

Lemma key_n_insert_sub n s es b : lookup n (snd b) = None -> key_n (fst b, insert n (Sub s es) (snd b)) = key_n b.
Proof.
  unfold key_n. cbn [snd]. intros H. f_equal. revert H.
  induction (snd b) as [|[k' e'] l IH]; cbn [lookup insert]; [reflexivity|].
  destruct (bcmp n k'); try discriminate.
  - reflexivity.
  - intros H. cbn [filter snd]. destruct e'; cbn [length]; now rewrite (IH H).
Qed.

(** the number of plain keys (KeyN) of every bucket outside the moved subtree is unchanged - including the
    two buckets that lost and gained the name *)
Theorem move_bucket_key_n src n dst root root' q :
  sorted_at src root -> move_bucket src n dst root = (ENone, root') ->
  ~ extends (src ++ [n]) q -> ~ extends (dst ++ [n]) q ->
  option_map key_n (resolve q root') = option_map key_n (resolve q root).
Proof.
  intros Hss H Hn1 Hn2.
  destruct (move_bucket_views Hss H) as (sb & db & s & es & (Rs & Ls & Vs) & (Rd & Ld & Vd)).
  destruct (path_eq_dec q src) as [->|Hq1]; [|destruct (path_eq_dec q dst) as [->|Hq2]].
  - rewrite (view_map key_n key_n_view (y := Some _) Vs), Rs. exact (f_equal Some (key_n_remove_sub n s es sb Ls)).
  - rewrite (view_map key_n key_n_view (y := Some _) Vd), Rd. exact (f_equal Some (key_n_insert_sub n s es db Ld)).
  - apply (view_map key_n key_n_view). now apply (move_bucket_frame src n dst).
Qed.

Theorem move_bucket_into_itself src n dst root :
  extends (src ++ [n]) dst -> fst (move_bucket src n dst root) <> ENone /\ snd (move_bucket src n dst root) = root.
Proof.
  intros Hx. destruct (move_bucket src n dst root) as [e r] eqn:M.
  assert (Hne : e <> ENone).
  { intros ->. destruct (move_bucket_inv M) as [sb db s es db1 _ _ _ _ Hnp _ _ _]. exact (Hnp Hx). }
  split; [exact Hne | exact (outcome_error (move_bucket_inv M) Hne)].
Qed.

(** sortedness of the source bucket is needed for [move_bucket_src_gone] (same reason as for DeleteBucket) *)
Example move_bucket_src_gone_needs_sorted :
  let root : bucket := (0, [([0], Sub 0 []); ([2], Sub 5 []); ([1], Val []); ([2], Sub 7 [])]) in
  exists root', move_bucket [] [2] [[0]] root = (ENone, root') /\
                resolve [[0]; [2]] root' = Some (5, []) /\ resolve [[2]] root' = Some (7, []).
Proof. eexists. repeat split; vm_compute; reflexivity. Qed.

Lemma update_seq_at p s b root : resolve p root = Some b ->
  sequence p (update p (s, snd b) root) = (ENone, s) /\ resolve p (update p (s, snd b) root) = Some (s, snd b).
Proof. intros R. unfold sequence. now rewrite (resolve_update p _ root b R). Qed.

Lemma update_seq_frame p s b root q : resolve p root = Some b -> q <> p ->
  same_view q (update p (s, snd b) root) root.
Proof. intros R Hq. now apply (update_frame p b). Qed.

Lemma update_seq_get p s b root q k : resolve p root = Some b ->
  get q k (update p (s, snd b) root) = get q k root.
Proof.
  intros R. destruct (path_eq_dec q p) as [->|Hq].
  - unfold get. now rewrite (resolve_update p _ root b R), R.
  - now apply same_view_get, update_seq_frame.
Qed.

Lemma update_seq_listing p s b root q : resolve p root = Some b ->
  option_map listing (resolve q (update p (s, snd b) root)) = option_map listing (resolve q root).
Proof.
  intros R. destruct (path_eq_dec q p) as [->|Hq].
  - now rewrite (resolve_update p _ root b R), R.
  - now apply (view_map listing listing_view), update_seq_frame.
Qed.

Lemma next_sequence_inv [p root e v root'] : next_sequence p root = (e, v, root') ->
  outcome e root root' (exists b, resolve p root = Some b /\ v = (fst b + 1) mod M64 /\
                                  root' = update p (v, snd b) root).
Proof.
  unfold next_sequence. destruct (resolve p root) as [b|]; intros [= <- <- <-]; [|reflexivity].
  exact (ex_intro _ b (conj eq_refl (conj eq_refl eq_refl))).
Qed.

Theorem next_sequence_spec p root v root' : next_sequence p root = (ENone, v, root') ->
  exists b, resolve p root = Some b /\ v = (fst b + 1) mod M64 /\
            sequence p root' = (ENone, v) /\ resolve p root' = Some (v, snd b).
Proof.
  intros H. destruct (next_sequence_inv H) as (b & R & E & ->).
  exists b. split; [exact R|]. split; [exact E | now apply update_seq_at].
Qed.

Theorem next_sequence_get_frame p root v root' q k : next_sequence p root = (ENone, v, root') ->
  get q k root' = get q k root.
Proof. intros H. destruct (next_sequence_inv H) as (b & R & _ & ->). now apply update_seq_get. Qed.

Theorem next_sequence_listing_frame p root v root' q : next_sequence p root = (ENone, v, root') ->
  option_map listing (resolve q root') = option_map listing (resolve q root).
Proof. intros H. destruct (next_sequence_inv H) as (b & R & _ & ->). now apply update_seq_listing. Qed.

Theorem next_sequence_frame p root v root' q : next_sequence p root = (ENone, v, root') ->
  q <> p -> same_view q root' root.
Proof. intros H. destruct (next_sequence_inv H) as (b & R & _ & ->). now apply update_seq_frame. Qed.

Theorem next_sequence_seq_frame p root v root' q : next_sequence p root = (ENone, v, root') ->
  q <> p -> sequence q root' = sequence q root.
Proof. intros H Hq. apply same_view_sequence. now apply (next_sequence_frame p root v). Qed.

Theorem next_sequence_wraps p root b : resolve p root = Some b -> fst b = MAXU64 ->
  exists root', next_sequence p root = (ENone, 0, root').
Proof.
  intros R Hm. unfold next_sequence. rewrite R, Hm. eexists. reflexivity.
Qed.

Lemma set_sequence_inv [p v root e root'] : set_sequence p v root = (e, root') ->
  outcome e root root' (exists b, resolve p root = Some b /\ root' = update p (v mod M64, snd b) root).
Proof.
  unfold set_sequence. destruct (resolve p root) as [b|]; intros [= <- <-]; [|reflexivity].
  exact (ex_intro _ b (conj eq_refl eq_refl)).
Qed.

Theorem set_sequence_spec p v root root' : set_sequence p v root = (ENone, root') ->
  exists b, resolve p root = Some b /\ sequence p root' = (ENone, v mod M64) /\
            resolve p root' = Some (v mod M64, snd b).
Proof.
  intros H. destruct (set_sequence_inv H) as (b & R & ->). exists b. split; [exact R | now apply update_seq_at].
Qed.

Theorem set_sequence_small p v root root' : set_sequence p v root = (ENone, root') -> v < M64 ->
  sequence p root' = (ENone, v).
Proof.
  intros H Hv. destruct (set_sequence_spec _ _ _ _ H) as [b [_ [S _]]]. now rewrite (N.mod_small v M64 Hv) in S.
Qed.

Theorem set_sequence_get_frame p v root root' q k : set_sequence p v root = (ENone, root') ->
  get q k root' = get q k root.
Proof. intros H. destruct (set_sequence_inv H) as (b & R & ->). now apply update_seq_get. Qed.

Theorem set_sequence_listing_frame p v root root' q : set_sequence p v root = (ENone, root') ->
  option_map listing (resolve q root') = option_map listing (resolve q root).
Proof. intros H. destruct (set_sequence_inv H) as (b & R & ->). now apply update_seq_listing. Qed.

Theorem set_sequence_frame p v root root' q : set_sequence p v root = (ENone, root') ->
  q <> p -> same_view q root' root.
Proof. intros H. destruct (set_sequence_inv H) as (b & R & ->). now apply update_seq_frame. Qed.

Theorem set_then_next p v root root1 w root2 : set_sequence p v root = (ENone, root1) ->
  next_sequence p root1 = (ENone, w, root2) -> w = (v mod M64 + 1) mod M64.
Proof.
  intros H1 H2. destruct (set_sequence_spec _ _ _ _ H1) as [b [_ [_ R1]]].
  destruct (next_sequence_spec _ _ _ _ H2) as [b1 [R1' [E _]]]. rewrite R1 in R1'. inversion R1'; subst b1.
  exact E.
Qed.

Lemma put_inv [p k v vl root e root'] : put p k v vl root = (e, root') ->
  outcome e root root' (exists b, resolve p root = Some b /\ plain (lookup k (snd b)) /\
                                  root' = update p (fst b, insert k (Val v) (snd b)) root).
Proof.
  unfold put. destruct (resolve p root) as [b|]; [|intros [= <- <-]; reflexivity].
  destruct (len k =? 0); [intros [= <- <-]; reflexivity|].
  destruct (max_key_size <? len k); [intros [= <- <-]; reflexivity|].
  destruct (max_value_size <? vl); [intros [= <- <-]; reflexivity|].
  destruct (lookup k (snd b)) as [[v0|s es]|] eqn:L; intros [= <- <-]; try reflexivity;
    exists b; rewrite L; exact (conj eq_refl (conj I eq_refl)).
Qed.

Lemma put_edits {p k v vl root root'} : put p k v vl root = (ENone, root') ->
  exists b, plain (lookup k (snd b)) /\ edits p k b (Some (Val v)) root root'.
Proof.
  intros H. destruct (put_inv H) as (b & R & P & ->). exists b. split; [exact P | now apply edits_insert].
Qed.

Theorem put_at p k v vl root root' : put p k v vl root = (ENone, root') ->
  exists b, resolve p root = Some b /\ resolve p root' = Some (fst b, insert k (Val v) (snd b)).
Proof.
  intros H. destruct (put_inv H) as (b & R & _ & ->). exists b. split; [exact R|].
  apply (resolve_update p _ root b R).
Qed.

(** every bucket strictly below the one written to is literally unchanged.  The aliasing case - a path that
    goes THROUGH the key just written - cannot name a bucket before (Put refuses to overwrite a bucket:
    EIncompatibleValue) nor after (the key now holds a plain value). *)
Theorem put_frame_below p k v vl root root' a r : put p k v vl root = (ENone, root') ->
  resolve (p ++ a :: r) root' = resolve (p ++ a :: r) root.
Proof.
  intros H. destruct (put_edits H) as (b & P & E). exact (edits_plain_frame_below a r E P I).
Qed.

Theorem put_through_key_none p k v vl root root' r : put p k v vl root = (ENone, root') ->
  resolve (p ++ k :: r) root' = None /\ resolve (p ++ k :: r) root = None.
Proof. intros H. destruct (put_edits H) as (b & P & E). exact (edits_plain_below r E P I). Qed.

Theorem put_frame_view p k v vl root root' q : put p k v vl root = (ENone, root') ->
  q <> p -> same_view q root' root.
Proof. intros H. destruct (put_edits H) as (b & P & E). exact (edits_plain_frame q E P I). Qed.

Theorem put_same_bucket p k v vl root root' : put p k v vl root = (ENone, root') ->
  exists b b', resolve p root = Some b /\ resolve p root' = Some b' /\ fst b' = fst b /\
               lookup k (snd b') = Some (Val v) /\ forall k2, k2 <> k -> lookup k2 (snd b') = lookup k2 (snd b).
Proof.
  intros H. destruct (put_edits H) as (b & _ & E). exists b. exact (edits_same_bucket E).
Qed.

Theorem put_get_frame p k v vl root root' q k2 : put p k v vl root = (ENone, root') ->
  (q <> p \/ k2 <> k) -> get q k2 root' = get q k2 root.
Proof.
  intros H. destruct (put_edits H) as (b & P & E). exact (edits_plain_get_frame q k2 E P I).
Qed.

Theorem put_sequence_frame p k v vl root root' q : put p k v vl root = (ENone, root') ->
  sequence q root' = sequence q root.
Proof.
  intros H. destruct (put_edits H) as (b & P & E). exact (edits_plain_sequence_frame q E P I).
Qed.

Theorem put_resolves_same p k v vl root root' q : put p k v vl root = (ENone, root') ->
  (resolve q root' = None <-> resolve q root = None).
Proof.
  intros H. destruct (path_eq_dec q p) as [->|Hq].
  - destruct (put_at _ _ _ _ _ _ H) as [b [R R']]. rewrite R, R'. split; discriminate.
  - exact (same_view_none (put_frame_view _ _ _ _ _ _ q H Hq)).
Qed.

Lemma delete_inv [p k root e root'] : delete p k root = (e, root') ->
  outcome e root root' (exists b, resolve p root = Some b /\ plain (lookup k (snd b)) /\
                                  root' = update p (fst b, remove k (snd b)) root).
Proof.
  unfold delete. destruct (resolve p root) as [b|] eqn:R; [|intros [= <- <-]; reflexivity].
  destruct (lookup k (snd b)) as [[v0|s es]|] eqn:L; intros [= <- <-]; try reflexivity; exists b; rewrite L.
  - exact (conj eq_refl (conj I eq_refl)).
  - split; [reflexivity|]. split; [exact I|]. (* deleting an absent key *)
    rewrite (remove_absent _ _ L), <- surjective_pairing. symmetry. now apply update_self.
Qed.

Lemma delete_edits {p k root root'} : sorted_at p root -> delete p k root = (ENone, root') ->
  exists b, plain (lookup k (snd b)) /\ edits p k b None root root'.
Proof.
  intros Hs H. destruct (delete_inv H) as (b & R & P & ->). exists b. split; [exact P | now apply edits_remove].
Qed.

Theorem delete_frame_below p k root root' a r : sorted_at p root -> delete p k root = (ENone, root') ->
  resolve (p ++ a :: r) root' = resolve (p ++ a :: r) root.
Proof.
  intros Hs H. destruct (delete_edits Hs H) as (b & P & E). exact (edits_plain_frame_below a r E P I).
Qed.

Theorem delete_frame_view p k root root' q : sorted_at p root -> delete p k root = (ENone, root') ->
  q <> p -> same_view q root' root.
Proof. intros Hs H. destruct (delete_edits Hs H) as (b & P & E). exact (edits_plain_frame q E P I). Qed.

Theorem delete_same_bucket p k root root' : sorted_at p root -> delete p k root = (ENone, root') ->
  exists b b', resolve p root = Some b /\ resolve p root' = Some b' /\ fst b' = fst b /\
               lookup k (snd b') = None /\ forall k2, k2 <> k -> lookup k2 (snd b') = lookup k2 (snd b).
Proof.
  intros Hs H. destruct (delete_edits Hs H) as (b & _ & E). exists b. exact (edits_same_bucket E).
Qed.

Theorem delete_get_frame p k root root' q k2 : sorted_at p root -> delete p k root = (ENone, root') ->
  (q <> p \/ k2 <> k) -> get q k2 root' = get q k2 root.
Proof.
  intros Hs H. destruct (delete_edits Hs H) as (b & P & E). exact (edits_plain_get_frame q k2 E P I).
Qed.

Theorem delete_sequence_frame p k root root' q : sorted_at p root -> delete p k root = (ENone, root') ->
  sequence q root' = sequence q root.
Proof.
  intros Hs H. destruct (delete_edits Hs H) as (b & P & E). exact (edits_plain_sequence_frame q E P I).
Qed.

(** Put's frame needs no sortedness at all ([lookup_insert_neq]); Delete's does: *)
Example delete_frame_needs_sorted :
  let root : bucket := (0, [([2], Val [1]); ([1], Val [3]); ([2], Val [7])]) in
  exists root', delete [] [2] root = (ENone, root') /\ get [] [2] root' = (ENone, Some [7]).
Proof. eexists. split; vm_compute; reflexivity. Qed.

(** [entry] is nested in [list]: the generated principle has no hypothesis for the entries of a nested bucket *)
Section entry_induction.
  Variable P : entry -> Prop.
  Hypothesis HV : forall v, P (Val v).
  Hypothesis HS : forall s es, (forall k e, In (k, e) es -> P e) -> P (Sub s es).
  Lemma entry_ind_nested : forall e, P e.
  Proof.
    fix IH 1. intros [v|s es]; [apply HV|]. apply HS.
    induction es as [|[k' e'] r IHr]; intros k e Hin.
    - destruct Hin.
    - destruct Hin as [Heq|Hin].
      + assert (E : e' = e) by exact (f_equal snd Heq). rewrite <- E. apply IH.
      + exact (IHr k e Hin).
  Qed.
End entry_induction.

Inductive wf_tree : list (bytes * entry) -> Prop :=
| wf_tree_intro l : keys_sorted l = true -> (forall k s es, In (k, Sub s es) l -> wf_tree es) -> wf_tree l.
Definition wf_bucket (b : bucket) : Prop := wf_tree (snd b).
Definition wf_entry (e : entry) : Prop := match e with Val _ => True | Sub _ es => wf_tree es end.

(** in terms of [lookup], which is how the operations see a bucket *)
Lemma wf_tree_iff l : wf_tree l <->
  keys_sorted l = true /\ forall k s es, lookup k l = Some (Sub s es) -> wf_tree es.
Proof.
  split.
  - intros [l' Hs H]. split; [exact Hs|]. intros k s es L. exact (H k s es (lookup_In _ _ _ L)).
  - intros [Hs H]. constructor; [exact Hs|]. intros k s es I. exact (H k s es (In_lookup_sorted l Hs _ _ I)).
Qed.

Lemma wf_tree_sub {l k s es} : wf_tree l -> lookup k l = Some (Sub s es) -> wf_tree es.
Proof. intros [_ H]%wf_tree_iff. apply H. Qed.

Lemma wf_empty : wf_tree [].
Proof. constructor; [reflexivity | intros k s es []]. Qed.

Lemma wf_resolve p : forall root b, wf_bucket root -> resolve p root = Some b -> wf_bucket b.
Proof.
  induction p as [|n p IH]; intros root b W R; cbn [resolve] in R; [now inversion R; subst|].
  destruct (lookup n (snd root)) as [[v|s es]|] eqn:L; try discriminate.
  apply (IH (s, es) b); [|exact R]. exact (wf_tree_sub W L).
Qed.

Theorem wf_sorted_at root p : wf_bucket root -> sorted_at p root.
Proof. intros W b R. now apply wf_tree_iff, (wf_resolve p root b). Qed.

Theorem wf_bucket_iff root : wf_bucket root <-> forall p, sorted_at p root.
Proof.
  split; [intros W p; now apply wf_sorted_at|].
  destruct root as [s0 es0]. unfold wf_bucket. cbn [snd].
  assert (G : forall e, match e with Val _ => True
                        | Sub s es => (forall p, sorted_at p (s, es)) -> wf_tree es end).
  { apply entry_ind_nested; [exact (fun _ => I)|]. intros s es IH Hall.
    assert (Hs : keys_sorted es = true) by (apply (Hall [] (s, es)); reflexivity).
    constructor; [exact Hs|]. intros k s1 es1 Hin.
    apply (IH k (Sub s1 es1) Hin). intros p b R. apply (Hall (k :: p) b).
    cbn [resolve snd]. now rewrite (In_lookup_sorted es Hs k (Sub s1 es1) Hin). }
  exact (G (Sub s0 es0)).
Qed.

Lemma wf_insert k e l : wf_tree l -> wf_entry e -> wf_tree (insert k e l).
Proof.
  intros [Hs H]%wf_tree_iff He. apply wf_tree_iff. split; [now apply insert_sorted|].
  intros k0 s es. destruct (bytes_eq_dec k0 k) as [->|Hk].
  - rewrite lookup_insert_same. intros [= ->]. exact He.
  - rewrite (lookup_insert_neq _ _ _ _ Hk). apply H.
Qed.

Lemma wf_remove k l : wf_tree l -> wf_tree (remove k l).
Proof.
  intros [Hs H]%wf_tree_iff. apply wf_tree_iff. split; [now apply remove_sorted|].
  intros k0 s es. destruct (bytes_eq_dec k0 k) as [->|Hk].
  - now rewrite (lookup_remove_same _ _ Hs).
  - rewrite (agree_except_remove k l Hs k0 Hk). apply H.
Qed.

(** every operation's new tree is an update by a bucket that is well-formed if the one it replaces is *)
Lemma wf_edit {p b s l root} : resolve p root = Some b -> wf_bucket root -> (wf_tree (snd b) -> wf_tree l) ->
  wf_bucket (update p (s, l) root).
Proof.
  revert root. induction p as [|n p IH]; intros root R W Hl; cbn [resolve update] in *.
  - injection R as ->. exact (Hl W).
  - destruct (lookup n (snd root)) as [[v|s1 es]|] eqn:L; try discriminate.
    destruct (update p (s, l) (s1, es)) as [s' es'] eqn:U. unfold wf_bucket. cbn [snd].
    apply wf_insert; [exact W|]. change (wf_bucket (s', es')). rewrite <- U.
    exact (IH _ R (wf_tree_sub W L) Hl).
Qed.

Lemma create_bucket_wf {p n root root'} : wf_bucket root -> create_bucket p n root = (ENone, root') -> wf_bucket root'.
Proof.
  intros W H. destruct (create_bucket_inv H) as (b & R & _ & _ & ->).
  apply (wf_edit R W). intros Wb. apply wf_insert; [exact Wb | exact wf_empty].
Qed.

Lemma exec_pair (x : err * bucket) (o : outv) e out root' :
  (let '(e0, r) := x in (e0, o, r)) = (e, out, root') -> x = (e, root').
Proof. destruct x. now intros [= <- _ <-]. Qed.

Theorem exec_error_unchanged w o root e out root' :
  exec w o root = (e, out, root') -> e <> ENone -> root' = root.
Proof.
  unfold exec. destruct (is_write o && negb w); [now intros [= _ _ <-]|].
  destruct o as [p n|p n|p n|s n d|p k v|p k|p k|p|p v|p].
  - intros H%exec_pair. exact (outcome_error (create_bucket_inv H)).
  - intros H%exec_pair. exact (outcome_error (create_bucket_if_not_exists_inv H)).
  - intros H%exec_pair. exact (outcome_error (delete_bucket_inv H)).
  - intros H%exec_pair. exact (outcome_error (move_bucket_inv H)).
  - intros H%exec_pair. exact (outcome_error (put_inv H)).
  - destruct (get p k root). now intros [= _ _ <-].
  - intros H%exec_pair. exact (outcome_error (delete_inv H)).
  - destruct (sequence p root). now intros [= _ _ <-].
  - intros H%exec_pair. exact (outcome_error (set_sequence_inv H)).
  - destruct (next_sequence p root) as [[e0 v0] r0] eqn:H. intros [= <- _ <-].
    exact (outcome_error (next_sequence_inv H)).
Qed.

(** read-your-own-writes *)
Theorem put_then_get p k v root root' out :
  exec true (OPut p k v) root = (ENone, out, root') ->
  exec true (OGet p k) root' = (ENone, VBytes (Some v), root').
Proof.
  unfold exec. cbn [is_write negb andb]. intros H%exec_pair.
  destruct (put_same_bucket _ _ _ _ _ _ H) as (b & b' & _ & R' & _ & L & _). unfold get. now rewrite R', L.
Qed.

Theorem delete_then_get p k root root' out :
  (forall b, resolve p root = Some b -> keys_sorted (snd b) = true) ->
  exec true (ODelete p k) root = (ENone, out, root') ->
  exec true (OGet p k) root' = (ENone, VBytes None, root').
Proof.
  unfold exec. cbn [is_write negb andb]. intros Hs H%exec_pair.
  destruct (delete_same_bucket _ _ _ _ Hs H) as (b & b' & _ & R' & _ & L & _). unfold get. now rewrite R', L.
Qed.

Theorem exec_wf w o root e out root' : wf_bucket root -> exec w o root = (e, out, root') -> wf_bucket root'.
Proof.
  intros W X. destruct e; try (rewrite (exec_error_unchanged _ _ _ _ _ _ X); [exact W | discriminate]).
  revert X. unfold exec. destruct (is_write o && negb w); [now intros [= _ _ <-]|].
  destruct o as [p n|p n|p n|s n d|p k v|p k|p k|p|p v|p].
  - intros H%exec_pair. exact (create_bucket_wf W H).
  - intros H%exec_pair. destruct (create_bucket_if_not_exists_inv H) as [H'|[-> _]]; [|exact W].
    exact (create_bucket_wf W H').
  - intros H%exec_pair. destruct (delete_bucket_inv H) as (b & s & es & R & _ & ->).
    apply (wf_edit R W), wf_remove.
  - intros H%exec_pair.
    destruct (move_bucket_inv H) as [sb db s0 es db1 Rs _ Ls _ _ _ R1 ->].
    apply (wf_edit R1 (wf_edit Rs W (wf_remove n _))). intros Wd.
    apply wf_insert; [exact Wd|]. exact (wf_tree_sub (wf_resolve s root sb W Rs) Ls).
  - intros H%exec_pair. destruct (put_inv H) as (b & R & _ & ->).
    apply (wf_edit R W). intros Wb. now apply wf_insert.
  - destruct (get p k root). now intros [= _ _ <-].
  - intros H%exec_pair. destruct (delete_inv H) as (b & R & _ & ->).
    apply (wf_edit R W), wf_remove.
  - destruct (sequence p root). now intros [= _ _ <-].
  - intros H%exec_pair. destruct (set_sequence_inv H) as (b & R & ->). now apply (wf_edit R W).
  - destruct (next_sequence p root) as [[e0 v0] r0] eqn:H. intros [= -> _ <-].
    destruct (next_sequence_inv H) as (b & R & _ & ->). now apply (wf_edit R W).
Qed.

Fixpoint exec_all (w : bool) (os : list op) (root : bucket) : bucket :=
  match os with [] => root | o :: r => exec_all w r (snd (exec w o root)) end.

Theorem exec_all_wf w os : forall root, wf_bucket root -> wf_bucket (exec_all w os root).
Proof.
  induction os as [|o os IH]; intros root W; [exact W|]. cbn [exec_all]. apply IH.
  destruct (exec w o root) as [[e out] r] eqn:X. cbn [snd]. now apply (exec_wf w o root e out r).
Qed.

Corollary exec_all_wf_from_empty w os : wf_bucket (exec_all w os (0, [])).
Proof. apply exec_all_wf. apply wf_empty. Qed.

Print Assumptions update_view_frame.
Print Assumptions update_local_frame.
Print Assumptions create_bucket_new.
Print Assumptions create_bucket_new_leaf.
Print Assumptions create_bucket_parent.
Print Assumptions create_bucket_frame.
Print Assumptions create_bucket_frame_below.
Print Assumptions create_bucket_twice.
Print Assumptions create_bucket_if_not_exists_spec.
Print Assumptions delete_bucket_subtree_gone.
Print Assumptions delete_bucket_parent.
Print Assumptions delete_bucket_frame.
Print Assumptions delete_bucket_frame_below.
Print Assumptions delete_bucket_twice.
Print Assumptions delete_bucket_needs_sorted.
Print Assumptions move_bucket_arrives.
Print Assumptions move_bucket_subtree.
Print Assumptions move_bucket_src_gone.
Print Assumptions move_bucket_src_subtree_gone.
Print Assumptions move_bucket_frame.
Print Assumptions move_bucket_key_n.
Print Assumptions move_bucket_into_itself.
Print Assumptions move_bucket_src_gone_needs_sorted.
Print Assumptions next_sequence_spec.
Print Assumptions next_sequence_get_frame.
Print Assumptions next_sequence_listing_frame.
Print Assumptions next_sequence_frame.
Print Assumptions next_sequence_seq_frame.
Print Assumptions next_sequence_wraps.
Print Assumptions set_sequence_spec.
Print Assumptions set_sequence_small.
Print Assumptions set_sequence_get_frame.
Print Assumptions set_sequence_listing_frame.
Print Assumptions set_sequence_frame.
Print Assumptions set_then_next.
Print Assumptions put_at.
Print Assumptions put_frame_below.
Print Assumptions put_through_key_none.
Print Assumptions put_frame_view.
Print Assumptions put_same_bucket.
Print Assumptions put_get_frame.
Print Assumptions put_sequence_frame.
Print Assumptions put_resolves_same.
Print Assumptions delete_frame_below.
Print Assumptions delete_frame_view.
Print Assumptions delete_same_bucket.
Print Assumptions delete_get_frame.
Print Assumptions delete_sequence_frame.
Print Assumptions delete_frame_needs_sorted.
Print Assumptions exec_wf.
Print Assumptions exec_all_wf.
Print Assumptions exec_all_wf_from_empty.
Print Assumptions wf_bucket_iff.
