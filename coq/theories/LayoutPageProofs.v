(** LayoutPageProofs: the writer specifications of the published version-2 layout of freelist, leaf and branch
    pages ([enc_page_header], [enc_freelist_page], [enc_leaf_page], [enc_branch_page]) and their round trips
    through the independent reader Layout.v, at any position in a file.  Leaf and branch pages are read through
    one description of the page image [header ++ element headers ++ key/value bytes] (Node.enc_elems,
    Node.enc_data), which both the published layout and node.write instantiate. *)
From Bbolt Require Import Base BaseProofs Consts Spec Layout LayoutEnc LayoutProofs Node.

Lemma idxs_of_nat n : idxs (N.of_nat n) = run_nat 0 n.
Proof. unfold idxs, run. now rewrite Nat2N.id. Qed.

(** what a reader computes from the index [i] stands in relation [R] to the [i]-th element, provided this holds
    for every element given together with the elements in front of it *)
Lemma Forall2_idx {A T} (R : A -> T -> Prop) (h : N -> T) l :
  (forall l1 x l2, l = l1 ++ x :: l2 -> R x (h (N.of_nat (length l1)))) ->
  Forall2 R l (map h (run_nat 0 (length l))).
Proof.
  enough (G : forall l' pre, (forall l1 x l2, l' = l1 ++ x :: l2 -> R x (h (N.of_nat (length (pre ++ l1))))) ->
                             Forall2 R l' (map h (run_nat (N.of_nat (length pre)) (length l')))) by apply (G l []).
  induction l' as [|x r IH]; intros pre H; [constructor|]. cbn [length run_nat map]. constructor.
  - specialize (H [] x r eq_refl). now rewrite app_nil_r in H.
  - specialize (IH (pre ++ [x])). rewrite app_length, Nat2N.inj_add in IH. apply IH.
    intros l1 y l2 ->. rewrite <- app_assoc. apply (H (x :: l1) y l2). reflexivity.
Qed.

Lemma map_idx {A} (h : N -> A) l :
  (forall l1 x l2, l = l1 ++ x :: l2 -> h (N.of_nat (length l1)) = x) -> map h (run_nat 0 (length l)) = l.
Proof.
  intros H. apply (Forall2_idx (fun x t => t = x)) in H. induction H as [|x t r ts -> _ ->]; reflexivity.
Qed.

Lemma Forall2_map_eq {A T B} (R : A -> T -> Prop) (g : A -> B) (k : T -> B) l ts :
  Forall2 R l ts -> (forall x t, R x t -> k t = g x) -> map k ts = map g l.
Proof. intros H E. induction H as [|x t l ts Hx _ IH]; cbn [map]; [reflexivity | now rewrite (E x t Hx), IH]. Qed.

Lemma Forall2_forallb {A T} (R : A -> T -> Prop) (b : T -> bool) l ts :
  Forall2 R l ts -> (forall x t, R x t -> b t = true) -> forallb b ts = true.
Proof. intros H E. induction H as [|x t l ts Hx _ IH]; cbn [forallb]; [reflexivity | now rewrite (E x t Hx), IH]. Qed.

Lemma Forall2_mapM {A T B} (R : A -> T -> Prop) (Q : A -> B -> Prop) (G : T -> option B) l ts : forall rs,
  Forall2 R l ts -> Forall2 Q l rs -> (forall x t r, R x t -> Q x r -> G t = Some r) -> mapM G ts = Some rs.
Proof.
  intros rs H. revert rs. induction H as [|x t l ts Hx _ IH]; intros rs HQ E; inversion HQ as [|? r ? rs' Hr HQ']; subst;
    cbn [mapM]; [reflexivity | now rewrite (E x t r Hx Hr), (IH rs' HQ' E)].
Qed.

Lemma Forall2_impl {A B} (P Q : A -> B -> Prop) l rs : (forall x r, P x r -> Q x r) -> Forall2 P l rs -> Forall2 Q l rs.
Proof. intros H. induction 1; constructor; auto. Qed.

Lemma Forall2_map_self {A B} (Q : A -> B -> Prop) (g : A -> B) l : Forall (fun x => Q x (g x)) l -> Forall2 Q l (map g l).
Proof. induction 1; constructor; assumption. Qed.

(** * the 16-byte page header: id:u64, flags:u16, count:u16, overflow:u32 *)
Definition enc_page_header (pg flags count ov : N) : list N :=
  enc_le 8 pg ++ enc_le 2 flags ++ enc_le 2 count ++ enc_le 4 ov.

(** [Node.write] names the same sixteen bytes [enc_header]; results about written nodes are stated over
    [enc_page_header] and reach [Node.write] through this equation *)
Lemma enc_header_eq pg fl c ov : enc_header pg fl c ov = enc_page_header pg fl c ov.
Proof. reflexivity. Qed.

Lemma enc_page_header_length pg fl c ov : length (enc_page_header pg fl c ov) = 16%nat.
Proof. unfold enc_page_header. now rewrite !app_length, !enc_le_length. Qed.

Lemma page_header_read rd b pg fl c ov rest : has_bytes rd b (enc_page_header pg fl c ov ++ rest) ->
  (pg < 2^64 -> u64 rd b = pg) /\ (fl < 2^16 -> u16 rd (b + 8) = fl) /\ (c < 2^16 -> u16 rd (b + 10) = c) /\
  (ov < 2^32 -> u32 rd (b + 12) = ov) /\ has_bytes rd (b + 16) rest.
Proof.
  unfold enc_page_header. rewrite <- !app_assoc. intros W.
  destruct (has_bytes_field0 _ _ _ _ _ W) as [E1 W1].
  destruct (has_bytes_field _ b 8 _ _ _ W1) as [E2 W2].
  destruct (has_bytes_field _ b 10 _ _ _ W2) as [E3 W3].
  destruct (has_bytes_field _ b 12 _ _ _ W3) as [E4 W4].
  repeat split; assumption.
Qed.

Lemma u64s_length ids : len (flat_map (enc_le 8) ids) = 8 * N.of_nat (length ids).
Proof. unfold len. induction ids as [|x r IH]; [reflexivity|]. cbn [flat_map length]. rewrite app_length, enc_le_length. lia. Qed.

Lemma u64s_read rd b ids : has_bytes rd b (flat_map (enc_le 8) ids) -> (forall x, In x ids -> x < 2^64) ->
  map (fun i => u64 rd (b + 8 * i)) (idxs (N.of_nat (length ids))) = ids.
Proof.
  intros W H. rewrite idxs_of_nat. apply map_idx. intros l1 x l2 E. rewrite E, flat_map_app in W.
  apply (has_bytes_skip _ _ _ _ (b + 8 * N.of_nat (length l1))) in W; [|now rewrite u64s_length].
  apply has_bytes_take in W. apply (has_bytes_le _ _ _ _ W). apply H. rewrite E. apply in_elt.
Qed.

Definition enc_freelist_page (pg ov : N) (ids : list N) : list N :=
  let n := N.of_nat (length ids) in
  enc_page_header pg freelist_page_flag (if n <? 65535 then n else 65535) ov
  ++ (if n <? 65535 then [] else enc_le 8 n) ++ flat_map (enc_le 8) ids.

(** the two encodings; the boundary: a list of exactly 65534 ids still uses the plain count, a list of exactly
    65535 ids must use the 0xFFFF escape (count field 0xFFFF, real count in the first u64) *)
Lemma enc_freelist_page_small pg ov ids : N.of_nat (length ids) <= 65534 ->
  enc_freelist_page pg ov ids =
  enc_page_header pg freelist_page_flag (N.of_nat (length ids)) ov ++ flat_map (enc_le 8) ids.
Proof.
  intros H. unfold enc_freelist_page. cbv zeta. destruct (N.ltb_spec (N.of_nat (length ids)) 65535); [reflexivity | lia].
Qed.
Lemma enc_freelist_page_large pg ov ids : 65535 <= N.of_nat (length ids) ->
  enc_freelist_page pg ov ids =
  enc_page_header pg freelist_page_flag 65535 ov ++ enc_le 8 (N.of_nat (length ids)) ++ flat_map (enc_le 8) ids.
Proof.
  intros H. unfold enc_freelist_page. cbv zeta. destruct (N.ltb_spec (N.of_nat (length ids)) 65535); [lia | reflexivity].
Qed.

Theorem freelist_page_roundtrip ps pg ov ids pre post :
  N.of_nat (length pre) = pg * ps ->
  (forall x, In x ids -> x < 2^64) ->
  N.of_nat (length ids) < 2^64 ->
  freelist_ids (rd_of (pre ++ enc_freelist_page pg ov ids ++ post)) ps pg = ids.
Proof.
  intros Hpre Hids Hn. pose proof (has_bytes_rd_of pre (enc_freelist_page pg ov ids) post) as W.
  unfold freelist_ids. rewrite <- Hpre. set (rd := rd_of _) in *. set (b := N.of_nat (length pre)) in *.
  destruct (N.le_gt_cases (N.of_nat (length ids)) 65534) as [Hs|Hl].
  - rewrite enc_freelist_page_small in W by exact Hs.
    destruct (page_header_read _ _ _ _ _ _ _ W) as (_ & _ & Hc & _ & W1). rewrite Hc by lia.
    destruct (N.eqb_spec (N.of_nat (length ids)) 65535); [lia|]. now apply u64s_read.
  - rewrite enc_freelist_page_large in W by lia.
    destruct (page_header_read _ _ _ _ _ _ _ W) as (_ & _ & Hc & _ & W1). rewrite Hc by reflexivity.
    destruct (has_bytes_field _ b 16 _ _ _ W1) as [En W2]. fold (u64 rd (b + 16)) in En.
    cbn [N.eqb Pos.eqb]. cbv zeta. rewrite (En Hn). now apply u64s_read.
Qed.

Theorem freelist_page_header_roundtrip ps pg ov ids pre post :
  N.of_nat (length pre) = pg * ps -> ov < 2^32 ->
  let rd := rd_of (pre ++ enc_freelist_page pg ov ids ++ post) in
  freelist_flags rd ps pg = freelist_page_flag /\ freelist_overflow rd ps pg = ov.
Proof.
  intros Hpre Hov rd. unfold freelist_flags, freelist_overflow. rewrite <- Hpre.
  destruct (page_header_read rd _ _ _ _ _ _ (has_bytes_rd_of pre _ post)) as (_ & Hfl & _ & Ho & _).
  split; [apply Hfl; reflexivity | apply Ho; exact Hov].
Qed.

(** * the page image of a node: page header, element headers, key/value bytes (what node.write produces) *)
Fixpoint data_total (l : list inode) : N :=
  match l with [] => 0 | x :: r => len (i_key x) + len (i_val x) + data_total r end.

Lemma data_total_app l1 l2 : data_total (l1 ++ l2) = data_total l1 + data_total l2.
Proof. induction l1 as [|x r IH]; cbn [app data_total]; [reflexivity | rewrite IH; lia]. Qed.

Lemma enc_data_app l1 l2 : enc_data (l1 ++ l2) = enc_data l1 ++ enc_data l2.
Proof. unfold enc_data. apply flat_map_app. Qed.

Lemma enc_data_length l : N.of_nat (length (enc_data l)) = data_total l.
Proof.
  unfold enc_data. induction l as [|x r IH]; [reflexivity|].
  cbn [flat_map data_total]. rewrite !app_length, !Nat2N.inj_add, IH. unfold len. lia.
Qed.

Lemma enc_elems_length leaf l : forall doff, length (enc_elems leaf doff l) = (16 * length l)%nat.
Proof.
  induction l as [|x r IH]; intros doff; [reflexivity|].
  cbn [enc_elems length]. destruct leaf; rewrite !app_length, !enc_le_length, IH; lia.
Qed.

(** the stored [pos] counts the element headers that follow, so a prefix of the list is encoded with the
    headers of the rest accounted for in [doff] *)
Lemma enc_elems_app leaf l1 : forall doff l2,
  enc_elems leaf doff (l1 ++ l2) =
  enc_elems leaf (doff + 16 * N.of_nat (length l2)) l1 ++ enc_elems leaf (doff + data_total l1) l2.
Proof.
  induction l1 as [|x r IH]; intros doff l2; cbn [app enc_elems data_total]; [now rewrite N.add_0_r|].
  rewrite IH, app_length, <- app_assoc.
  replace (16 * N.of_nat (S (length r + length l2)) + doff)
    with (16 * N.of_nat (S (length r)) + (doff + 16 * N.of_nat (length l2))) by lia.
  replace (doff + len (i_key x) + len (i_val x) + 16 * N.of_nat (length l2))
    with (doff + 16 * N.of_nat (length l2) + len (i_key x) + len (i_val x)) by lia.
  now rewrite !N.add_assoc.
Qed.

(** One element of a page image whose element headers start at [E]: its header sits at [e], its key and value
    bytes at [kp], inside the image; the header holds the distance from [e] to [kp] and the sizes (a leaf also
    the flags, a branch the child page id). *)
Lemma elem_at rd leaf E l l1 x l2 :
  has_bytes rd E (enc_elems leaf 0 l ++ enc_data l) -> l = l1 ++ x :: l2 ->
  16 * N.of_nat (length l) + data_total l < 2^32 ->
  let e := E + 16 * N.of_nat (length l1) in
  let kp := E + 16 * N.of_nat (length l) + data_total l1 in
  has_bytes rd kp (i_key x ++ i_val x) /\
  kp + len (i_key x) + len (i_val x) <= E + 16 * N.of_nat (length l) + data_total l /\
  if leaf then (i_flags x < 2^32 -> u32 rd e = i_flags x) /\ e + u32 rd (e + 4) = kp /\
               u32 rd (e + 8) = len (i_key x) /\ u32 rd (e + 12) = len (i_val x)
  else e + u32 rd e = kp /\ u32 rd (e + 4) = len (i_key x) /\ (i_pgid x < 2^64 -> u64 rd (e + 8) = i_pgid x).
Proof.
  intros W -> Hb e kp. apply has_bytes_app in W as [WE WD].
  unfold len in WD. rewrite enc_elems_length, Nat2N.inj_mul in WD. change (N.of_nat 16) with 16 in WD.
  rewrite enc_elems_app in WE. rewrite enc_data_app in WD.
  rewrite data_total_app, app_length in Hb. cbn [data_total length] in Hb.
  apply (has_bytes_skip _ _ _ _ e) in WE; [|unfold len, e; rewrite enc_elems_length; lia].
  apply (has_bytes_skip _ _ _ _ kp) in WD; [|unfold len, kp; rewrite enc_data_length; reflexivity].
  split; [exact (has_bytes_take _ _ _ _ WD)|].
  cbn [enc_elems] in WE. set (pos := 16 * N.of_nat (S (length l2)) + (0 + data_total l1)) in WE.
  assert (B : kp + len (i_key x) + len (i_val x) <= E + 16 * N.of_nat (length (l1 ++ x :: l2)) + data_total (l1 ++ x :: l2) /\
              e + pos = kp /\ pos < 2^32 /\ len (i_key x) < 2^32 /\ len (i_val x) < 2^32)
    by (unfold e, kp, pos; rewrite data_total_app, app_length; cbn [data_total length]; unfold len in *; lia).
  destruct B as (Bl & P & Bp & Bk & Bv). split; [exact Bl|].
  destruct leaf; rewrite <- !app_assoc in WE.
  - destruct (has_bytes_field0 _ _ _ _ _ WE) as [U1 W1].
    destruct (has_bytes_field _ e 4 _ _ _ W1) as [U2 W2].
    destruct (has_bytes_field _ e 8 _ _ _ W2) as [U3 W3].
    destruct (has_bytes_field _ e 12 _ _ _ W3) as [U4 _].
    unfold u32. rewrite (U2 Bp), (U3 Bk), (U4 Bv). auto.
  - destruct (has_bytes_field0 _ _ _ _ _ WE) as [U1 W1].
    destruct (has_bytes_field _ e 4 _ _ _ W1) as [U2 W2].
    destruct (has_bytes_field _ e 8 _ _ _ W2) as [U3 _].
    unfold u32. rewrite (U1 Bp), (U2 Bk). auto.
Qed.

(** the element list the decoder builds for a leaf page: (flags, absolute key position, ksize, vsize) *)
Definition leaf_elems (rd : N -> N) (base count : N) : list (N * N * N * N) :=
  map (fun i =>
         let e := base + 16 + 16 * i in
         let efl := u32 rd e in let pos := u32 rd (e + 4) in let ks := u32 rd (e + 8) in let vs := u32 rd (e + 12) in
         (efl, e + pos, ks, vs)) (idxs count).

(** one decoded element: key, entry, pages below it, order flag, bounds flag *)
Definition eres := (bytes * entry * list (N * N * N) * bool * bool)%type.

(** what the decoder does with one leaf element (fuel [f] = the fuel left for sub-buckets) *)
Definition elem_dec (rd : N -> N) (ps : N) (f : nat) (x : N * N * N * N) : option eres :=
  let '(efl, kp, ks, vs) := x in
  let k := rbytes rd (N.to_nat ks) kp in
  let vb := kp + ks in
  if N.odd efl then
    let root := u64 rd vb in let sq := u64 rd (vb + 8) in
    match (if root =? 0 then dec_page rd ps f (vb + 16) (vb + vs) true None None
           else dec_page rd ps f (root * ps) (root * ps + (u32 rd (root * ps + 12) + 1) * ps) false None None) with
    | None => None
    | Some d => Some (k, Sub sq (r_ents d), r_pages d, r_order d, r_bounds d && (16 <=? vs))
    end
  else Some (k, Val (rbytes rd (N.to_nat vs) vb), [], true, true).

(** the result for a leaf page, from the pages recorded for it, the keys, the bounds test and the element results *)
Definition leaf_res (me : list (N * N * N)) (lo hi : option bytes) (keys : list bytes) (bounds : bool) (rs : list eres) : dres :=
  {| r_ents := map (fun r : eres => let '(k, e, _, _, _) := r in (k, e)) rs;
     r_pages := me ++ flat_map (fun r : eres => let '(_, _, pg, _, _) := r in pg) rs;
     r_order := strictly_inc keys && match keys with [] => true | k :: _ => opt_le lo k end
                && forallb (fun k => opt_lt k hi) keys
                && forallb (fun r : eres => let '(_, _, _, o, _) := r in o) rs;
     r_bounds := bounds && forallb (fun r : eres => let '(_, _, _, _, b) := r in b) rs |}.

Lemma dec_page_leaf_unfold rd ps f base limit inline lo hi :
  u16 rd (base + 8) = leaf_page_flag ->
  dec_page rd ps (S f) base limit inline lo hi =
  let count := u16 rd (base + 10) in
  let elems := leaf_elems rd base count in
  match mapM (elem_dec rd ps f) elems with
  | None => None
  | Some rs =>
      Some (leaf_res (if inline then [] else [(u64 rd base, u32 rd (base + 12), leaf_page_flag)]) lo hi
              (map (fun x : N * N * N * N => let '(efl, kp, ks, vs) := x in rbytes rd (N.to_nat ks) kp) elems)
              ((base + 16 + 16 * count <=? limit)
               && forallb (fun x : N * N * N * N => let '(efl, kp, ks, vs) := x in kp + ks + vs <=? limit) elems) rs)
  end.
Proof.
  intros H. cbn [dec_page]. rewrite H. change (leaf_page_flag =? leaf_page_flag) with true. cbv iota. reflexivity.
Qed.

Lemma key_val_read rd kp k v : has_bytes rd kp (k ++ v) ->
  rbytes rd (N.to_nat (len k)) kp = k /\ rbytes rd (N.to_nat (len v)) (kp + len k) = v.
Proof. intros W. apply has_bytes_app in W. unfold len. now rewrite !Nat2N.id. Qed.

Lemma elem_dec_plain rd ps f fl kp k v : N.odd fl = false -> has_bytes rd kp (k ++ v) ->
  elem_dec rd ps f (fl, kp, len k, len v) = Some (k, Val v, [], true, true).
Proof. intros Hev W. apply key_val_read in W as [Ek Ev]. unfold elem_dec. now rewrite Hev, Ek, Ev. Qed.

(** The generic leaf statement: a leaf page image at [b] decodes to the results [rs], one for each element, if
    [rs] lists what the decoder computes for each element wherever its key and value bytes are found. *)
Theorem leaf_image_dec rd ps f b pg ov l limit inline lo hi (rs : list eres) :
  has_bytes rd b (enc_page_header pg leaf_page_flag (N.of_nat (length l)) ov ++ enc_elems true 0 l ++ enc_data l) ->
  pg < 2^64 -> ov < 2^32 -> N.of_nat (length l) < 65536 -> Forall (fun x => i_flags x < 2^32) l ->
  16 + 16 * N.of_nat (length l) + data_total l < 2^32 ->
  b + (16 + 16 * N.of_nat (length l) + data_total l) <= limit ->
  Forall2 (fun x r => forall kp, has_bytes rd kp (i_key x ++ i_val x) -> len (i_key x) + len (i_val x) < 2^32 ->
             elem_dec rd ps f (i_flags x, kp, len (i_key x), len (i_val x)) = Some r) l rs ->
  dec_page rd ps (S f) b limit inline lo hi =
  Some (leaf_res (if inline then [] else [(pg, ov, leaf_page_flag)]) lo hi (keys_of l) true rs).
Proof.
  intros W Hpg Hov Hc Hfl H32 Hlim HF.
  destruct (page_header_read _ _ _ _ _ _ _ W) as (Eid & Efl & Ecnt & Eov & WE).
  rewrite (dec_page_leaf_unfold rd ps f b limit inline lo hi (Efl eq_refl)). cbv zeta.
  rewrite (Eid Hpg), (Ecnt Hc), (Eov Hov).
  assert (HE : Forall2 (fun x t => exists kp, t = (i_flags x, kp, len (i_key x), len (i_val x)) /\
                          has_bytes rd kp (i_key x ++ i_val x) /\ kp + len (i_key x) + len (i_val x) <= limit /\
                          len (i_key x) + len (i_val x) < 2^32)
                       l (leaf_elems rd b (N.of_nat (length l)))).
  { unfold leaf_elems. rewrite idxs_of_nat. apply Forall2_idx. intros l1 x l2 E.
    destruct (elem_at rd true (b + 16) l l1 x l2 WE E) as (WK & Bl & U1 & U2 & U3 & U4); [lia|].
    eexists. cbv zeta. rewrite U1, U2, U3, U4; [split; [reflexivity | split; [exact WK | lia]]|].
    rewrite Forall_forall in Hfl. apply Hfl. rewrite E. apply in_elt. }
  rewrite (Forall2_mapM _ _ (elem_dec rd ps f) l _ rs HE HF)
    by (intros x t r (kp & -> & WK & _ & B32) Q; exact (Q kp WK B32)).
  rewrite (Forall2_map_eq _ i_key _ l _ HE) by (intros x t (kp & -> & WK & _); apply (key_val_read _ _ _ _ WK)).
  rewrite (Forall2_forallb _ _ l _ HE) by (intros x t (kp & -> & _ & Bl & _); now apply N.leb_le).
  now replace (b + 16 + 16 * N.of_nat (length l) <=? limit) with true by (symmetry; apply N.leb_le; lia).
Qed.

Definition plain_res (x : inode) : eres := (i_key x, Val (i_val x), [], true, true).

Lemma plain_res_ents l : map (fun r : eres => let '(k, e, _, _, _) := r in (k, e)) (map plain_res l) = map (fun x => (i_key x, Val (i_val x))) l.
Proof. rewrite map_map. reflexivity. Qed.
Lemma plain_res_pages l : flat_map (fun r : eres => let '(_, _, p, _, _) := r in p) (map plain_res l) = [].
Proof. induction l as [|x r IH]; [reflexivity|]. cbn [map flat_map plain_res app]. exact IH. Qed.
Lemma plain_res_order l : forallb (fun r : eres => let '(_, _, _, o, _) := r in o) (map plain_res l) = true.
Proof. induction l as [|x r IH]; [reflexivity|]. cbn [map forallb plain_res andb]. exact IH. Qed.
Lemma plain_res_bounds l : forallb (fun r : eres => let '(_, _, _, _, bd) := r in bd) (map plain_res l) = true.
Proof. induction l as [|x r IH]; [reflexivity|]. cbn [map forallb plain_res andb]. exact IH. Qed.

Theorem leaf_plain_dec rd ps f b pg ov l limit inline lo hi :
  has_bytes rd b (enc_page_header pg leaf_page_flag (N.of_nat (length l)) ov ++ enc_elems true 0 l ++ enc_data l) ->
  pg < 2^64 -> ov < 2^32 -> N.of_nat (length l) < 65536 ->
  Forall (fun x => i_flags x < 2^32 /\ N.odd (i_flags x) = false) l ->
  16 + 16 * N.of_nat (length l) + data_total l < 2^32 ->
  b + (16 + 16 * N.of_nat (length l) + data_total l) <= limit ->
  dec_page rd ps (S f) b limit inline lo hi =
  Some {| r_ents := map (fun x => (i_key x, Val (i_val x))) l;
          r_pages := if inline then [] else [(pg, ov, leaf_page_flag)];
          r_order := strictly_inc (keys_of l) && match keys_of l with [] => true | k :: _ => opt_le lo k end
                     && forallb (fun k => opt_lt k hi) (keys_of l);
          r_bounds := true |}.
Proof.
  intros W Hpg Hov Hc Hfl H32 Hlim.
  rewrite (leaf_image_dec rd ps f b pg ov l limit inline lo hi (map plain_res l) W Hpg Hov Hc); try assumption.
  - unfold leaf_res. now rewrite plain_res_ents, plain_res_pages, plain_res_order, plain_res_bounds, app_nil_r, andb_true_r.
  - eapply Forall_impl; [|exact Hfl]. now intros x [H _].
  - apply Forall2_map_self. eapply Forall_impl; [|exact Hfl]. intros x [_ Hev] kp WK _. now apply elem_dec_plain.
Qed.

Lemma image_length pg fl ov leaf l :
  N.of_nat (length (enc_page_header pg fl (N.of_nat (length l)) ov ++ enc_elems leaf 0 l ++ enc_data l))
  = 16 + 16 * N.of_nat (length l) + data_total l.
Proof. rewrite !app_length, enc_page_header_length, enc_elems_length, !Nat2N.inj_add, enc_data_length. lia. Qed.

Lemma forallb_opt_lt_none ks : forallb (fun k : bytes => opt_lt k None) ks = true.
Proof. induction ks as [|k r IH]; [reflexivity|]. cbn [forallb opt_lt]. exact IH. Qed.

(** * leaf page with plain values, packed the way bbolt writes it: header, all element headers, then key/value bytes *)
(** element headers; [doff] = offset of this element's key from the start of the data area; the stored [pos] is the
    distance from the start of THIS element header to its key *)
Fixpoint enc_leaf_elems (doff : N) (kvs : list (bytes * bytes)) : list N :=
  match kvs with [] => [] | kv :: r =>
    enc_le 4 0 ++ enc_le 4 (16 * N.of_nat (S (length r)) + doff) ++ enc_le 4 (len (fst kv)) ++ enc_le 4 (len (snd kv))
    ++ enc_leaf_elems (doff + len (fst kv) + len (snd kv)) r end.

Definition leaf_data (kvs : list (bytes * bytes)) : list N := flat_map (fun kv => fst kv ++ snd kv) kvs.

Definition enc_leaf_page_ov (pg ov : N) (kvs : list (bytes * bytes)) : list N :=
  enc_page_header pg leaf_page_flag (N.of_nat (length kvs)) ov ++ enc_leaf_elems 0 kvs ++ leaf_data kvs.
Definition enc_leaf_page (pg : N) (kvs : list (bytes * bytes)) : list N := enc_leaf_page_ov pg 0 kvs.

(** the published leaf layout is the image of the node that holds the pairs with flags 0 *)
Lemma enc_elems_leaf_spec l : forall doff, Forall (fun x => i_flags x = 0) l ->
  enc_elems true doff l = enc_leaf_elems doff (map (fun x => (i_key x, i_val x)) l).
Proof.
  induction l as [|x r IH]; intros doff H; [reflexivity|].
  inversion H as [|? ? Hx Hr]; subst. cbn [enc_elems map enc_leaf_elems fst snd].
  rewrite Hx, map_length, (IH _ Hr), <- !app_assoc. reflexivity.
Qed.

Lemma enc_data_leaf_spec l : enc_data l = leaf_data (map (fun x => (i_key x, i_val x)) l).
Proof. unfold enc_data, leaf_data. induction l as [|x r IH]; [reflexivity|]. cbn [flat_map map fst snd]. now rewrite IH. Qed.

Definition kv_inode (kv : bytes * bytes) : inode := {| i_flags := 0; i_key := fst kv; i_val := snd kv; i_pgid := 0 |}.

Lemma enc_leaf_page_ov_image pg ov kvs :
  enc_leaf_page_ov pg ov kvs =
  enc_page_header pg leaf_page_flag (N.of_nat (length (map kv_inode kvs))) ov
  ++ enc_elems true 0 (map kv_inode kvs) ++ enc_data (map kv_inode kvs).
Proof.
  assert (E : map (fun x => (i_key x, i_val x)) (map kv_inode kvs) = kvs).
  { rewrite map_map. rewrite <- (map_id kvs) at 2. apply map_ext. now intros []. }
  rewrite enc_elems_leaf_spec, enc_data_leaf_spec, E, map_length; [reflexivity|].
  apply Forall_map, Forall_forall. reflexivity.
Qed.

Theorem leaf_page_ov_roundtrip ps fuel pg ov kvs pre post limit :
  (1 <= fuel)%nat ->
  pg < 2^64 -> ov < 2^32 ->
  N.of_nat (length kvs) < 65536 ->
  N.of_nat (length (enc_leaf_page_ov pg ov kvs)) < 2^32 ->
  N.of_nat (length pre) + N.of_nat (length (enc_leaf_page_ov pg ov kvs)) <= limit ->
  strictly_inc (map fst kvs) = true ->
  dec_page (rd_of (pre ++ enc_leaf_page_ov pg ov kvs ++ post)) ps fuel (N.of_nat (length pre)) limit false None None
  = Some {| r_ents := map (fun kv => (fst kv, Val (snd kv))) kvs;
            r_pages := [(pg, ov, leaf_page_flag)];
            r_order := true; r_bounds := true |}.
Proof.
  intros Hf Hpg Hov Hc H32 Hlim Hinc. destruct fuel as [|f]; [lia|].
  pose proof (has_bytes_rd_of pre (enc_leaf_page_ov pg ov kvs) post) as W.
  rewrite enc_leaf_page_ov_image in W, H32, Hlim |- *. rewrite image_length in H32, Hlim.
  set (l := map kv_inode kvs) in *.
  rewrite (leaf_plain_dec _ ps f _ pg ov l limit false None None W); try assumption.
  - replace (keys_of l) with (map fst kvs) by (unfold keys_of, l; now rewrite map_map).
    rewrite Hinc, forallb_opt_lt_none. unfold l. rewrite map_map. now destruct (map fst kvs).
  - unfold l. now rewrite map_length.
  - apply Forall_map, Forall_forall. now split.
Qed.

(** the statement for pages without overflow, in the form: rd = the file, base = start of the page *)
Theorem leaf_page_roundtrip ps fuel pg kvs pre post limit :
  (1 <= fuel)%nat ->
  pg < 2^64 ->
  N.of_nat (length kvs) < 65536 ->
  N.of_nat (length (enc_leaf_page pg kvs)) < 2^32 ->
  N.of_nat (length pre) + N.of_nat (length (enc_leaf_page pg kvs)) <= limit ->
  strictly_inc (map fst kvs) = true ->
  let rd := rd_of (pre ++ enc_leaf_page pg kvs ++ post) in
  let base := N.of_nat (length pre) in
  dec_page rd ps fuel base limit false None None
  = Some {| r_ents := map (fun kv => (fst kv, Val (snd kv))) kvs;
            r_pages := [(pg, 0, leaf_page_flag)];
            r_order := true; r_bounds := true |}.
Proof.
  intros Hf Hpg Hc H32 Hlim Hinc rd base. subst rd base. unfold enc_leaf_page in *.
  apply leaf_page_ov_roundtrip; try assumption. reflexivity.
Qed.

(** * branch page: element parsing (pos:u32, ksize:u32, pgid:u64; key at element start + pos) *)
Fixpoint enc_branch_elems (doff : N) (kcs : list (bytes * N)) : list N :=
  match kcs with [] => [] | kc :: r =>
    enc_le 4 (16 * N.of_nat (S (length r)) + doff) ++ enc_le 4 (len (fst kc)) ++ enc_le 8 (snd kc)
    ++ enc_branch_elems (doff + len (fst kc)) r end.

Definition branch_data (kcs : list (bytes * N)) : list N := flat_map (fun kc => fst kc) kcs.

Definition enc_branch_page (pg ov : N) (kcs : list (bytes * N)) : list N :=
  enc_page_header pg branch_page_flag (N.of_nat (length kcs)) ov ++ enc_branch_elems 0 kcs ++ branch_data kcs.

(** the published branch layout is the image of the node that holds the keys and child ids *)
Lemma enc_elems_branch_spec l : forall doff, Forall (fun x => i_val x = []) l ->
  enc_elems false doff l = enc_branch_elems doff (map (fun x => (i_key x, i_pgid x)) l).
Proof.
  induction l as [|x r IH]; intros doff H; [reflexivity|].
  inversion H as [|? ? Hx Hr]; subst. cbn [enc_elems map enc_branch_elems fst snd].
  rewrite Hx, map_length. change (len []) with 0. rewrite N.add_0_r, (IH _ Hr), <- !app_assoc. reflexivity.
Qed.

Lemma enc_data_branch_spec l : Forall (fun x => i_val x = []) l ->
  enc_data l = branch_data (map (fun x => (i_key x, i_pgid x)) l).
Proof.
  unfold enc_data, branch_data. induction 1 as [|x r Hx _ IH]; [reflexivity|].
  cbn [flat_map map fst snd]. now rewrite IH, Hx, app_nil_r.
Qed.

Definition kc_inode (kc : bytes * N) : inode := {| i_flags := 0; i_key := fst kc; i_val := []; i_pgid := snd kc |}.

Lemma kc_inode_inv kcs : map (fun x => (i_key x, i_pgid x)) (map kc_inode kcs) = kcs.
Proof. rewrite map_map. rewrite <- (map_id kcs) at 2. apply map_ext. now intros []. Qed.

Lemma enc_branch_page_image pg ov kcs :
  enc_branch_page pg ov kcs =
  enc_page_header pg branch_page_flag (N.of_nat (length (map kc_inode kcs))) ov
  ++ enc_elems false 0 (map kc_inode kcs) ++ enc_data (map kc_inode kcs).
Proof.
  assert (F : Forall (fun x => i_val x = []) (map kc_inode kcs)) by (apply Forall_map, Forall_forall; reflexivity).
  now rewrite (enc_elems_branch_spec _ 0 F), (enc_data_branch_spec _ F), kc_inode_inv, map_length.
Qed.

(** the decoder's [elems] list of a branch page, as written in [dec_page] *)
Definition branch_elems (rd : N -> N) (base count : N) : list (N * N * N) :=
  map (fun i =>
         let e := base + 16 + 16 * i in
         let pos := u32 rd e in let ks := u32 rd (e + 4) in let child := u64 rd (e + 8) in
         (e + pos, ks, child)) (idxs count).

Theorem branch_elems_roundtrip pg ov kcs pre post limit :
  pg < 2^64 -> ov < 2^32 ->
  N.of_nat (length kcs) < 65536 ->
  (forall kc, In kc kcs -> snd kc < 2^64) ->
  N.of_nat (length (enc_branch_page pg ov kcs)) < 2^32 ->
  N.of_nat (length pre) + N.of_nat (length (enc_branch_page pg ov kcs)) <= limit ->
  let rd := rd_of (pre ++ enc_branch_page pg ov kcs ++ post) in
  let base := N.of_nat (length pre) in
  u64 rd base = pg /\ u16 rd (base + 8) = branch_page_flag /\ u16 rd (base + 10) = N.of_nat (length kcs) /\
  u32 rd (base + 12) = ov /\
  let elems := branch_elems rd base (u16 rd (base + 10)) in
  (* keys and child ids are recovered, in order *)
  map (fun x : N * N * N => let '(kp, ks, child) := x in (rbytes rd (N.to_nat ks) kp, child)) elems = kcs /\
  (* and the decoder's bounds test passes *)
  (base + 16 + 16 * u16 rd (base + 10) <=? limit) &&
    forallb (fun x : N * N * N => let '(kp, ks, child) := x in kp + ks <=? limit) elems = true.
Proof.
  intros Hpg Hov Hc Hch H32 Hlim rd b.
  pose proof (has_bytes_rd_of pre (enc_branch_page pg ov kcs) post) as W. fold rd b in W.
  rewrite enc_branch_page_image in W, H32, Hlim. rewrite image_length in H32, Hlim.
  set (l := map kc_inode kcs) in *.
  replace (N.of_nat (length kcs)) with (N.of_nat (length l)) in * by (unfold l; now rewrite map_length).
  destruct (page_header_read _ _ _ _ _ _ _ W) as (Eid & Efl & Ecnt & Eov & WE).
  assert (HE : Forall2 (fun x t => exists kp, t = (kp, len (i_key x), i_pgid x) /\
                          has_bytes rd kp (i_key x ++ i_val x) /\ kp + len (i_key x) <= limit)
                       l (branch_elems rd b (N.of_nat (length l)))).
  { unfold branch_elems. rewrite idxs_of_nat. apply Forall2_idx. intros l1 x l2 E.
    destruct (elem_at rd false (b + 16) l l1 x l2 WE E) as (WK & Bl & U1 & U2 & U3); [lia|].
    eexists. cbv zeta. rewrite U1, U2, U3; [split; [reflexivity | split; [exact WK | lia]]|].
    assert (Hx : In x l) by (rewrite E; apply in_elt). apply in_map_iff in Hx as (kc & <- & Hkc). apply Hch, Hkc. }
  rewrite (Ecnt Hc). repeat split; [exact (Eid Hpg) | exact (Efl eq_refl) | exact (Eov Hov) |..]; cbv zeta.
  - rewrite (Forall2_map_eq _ (fun x => (i_key x, i_pgid x)) _ l _ HE); [apply kc_inode_inv|].
    intros x t (kp & -> & WK & _). now rewrite (proj1 (key_val_read _ _ _ _ WK)).
  - rewrite (Forall2_forallb _ _ l _ HE) by (intros x t (kp & -> & _ & Bl); now apply N.leb_le).
    rewrite andb_true_r. apply N.leb_le. lia.
Qed.

Lemma mapM_ext {A B} (F G : A -> option B) (l : list A) : (forall x, F x = G x) -> mapM F l = mapM G l.
Proof. intros E. induction l as [|x l IH]; [reflexivity|]. cbn [mapM]. now rewrite E, IH. Qed.

Lemma mapM_combine_map {A A' H B} (g : A -> A') (F : A' * H -> option B) (l : list A) : forall hs,
  mapM (fun xh : A * H => F (g (fst xh), snd xh)) (combine l hs) = mapM F (combine (map g l) hs).
Proof.
  induction l as [|x l IH]; intros [|h hs]; try reflexivity.
  cbn [combine map mapM fst snd]. rewrite IH. reflexivity.
Qed.

(** Decoding a branch page is the recursive decode of the children over the (separator key, child id) pairs read
    from [branch_elems], each child bounded above by the next separator (no assumption besides the flag). *)
Lemma dec_page_branch_unfold rd ps f base limit lo hi :
  u16 rd (base + 8) = branch_page_flag ->
  dec_page rd ps (S f) base limit false lo hi =
  let count := u16 rd (base + 10) in
  let elems := branch_elems rd base count in
  let kcs := map (fun x : N * N * N => let '(kp, ks, child) := x in (rbytes rd (N.to_nat ks) kp, child)) elems in
  let keys := map fst kcs in
  match mapM (fun kch : bytes * N * option bytes =>
          let '((k, c), h) := kch in
          dec_page rd ps f (c * ps) (c * ps + (u32 rd (c * ps + 12) + 1) * ps) false (Some k) h)
        (combine kcs (map Some (tl keys) ++ [hi])) with
  | None => None
  | Some rs => Some {| r_ents := flat_map r_ents rs;
                       r_pages := [(u64 rd base, u32 rd (base + 12), branch_page_flag)] ++ flat_map r_pages rs;
                       r_order := strictly_inc keys
                                  && match keys with [] => true | k :: _ => opt_le lo k end
                                  && forallb (fun k => opt_lt k hi) keys
                                  && forallb r_order rs && negb (count =? 0);
                       r_bounds := (base + 16 + 16 * count <=? limit)
                                   && forallb (fun x : N * N * N => let '(kp, ks, child) := x in kp + ks <=? limit) elems
                                   && forallb r_bounds rs |}
  end.
Proof.
  intros H. set (g := fun x : N * N * N => let '(kp, ks, child) := x in (rbytes rd (N.to_nat ks) kp, child)). cbv zeta.
  rewrite map_map, <- mapM_combine_map.
  rewrite (map_ext (fun x => fst (g x)) (fun '(kp, ks, _) => rbytes rd (N.to_nat ks) kp)) by now intros [[kp ks] c].
  erewrite mapM_ext.
  - cbn [dec_page]. rewrite H.
    change (branch_page_flag =? leaf_page_flag) with false. change (branch_page_flag =? branch_page_flag) with true.
    cbv iota. reflexivity.
  - now intros [[[kp ks] c] h].
Qed.

(** nothing else decodes: a page is a leaf, or a branch that is not inline *)
Lemma flag_cases {T} (fl : N) (inline : bool) (L B : option T) d :
  (if fl =? leaf_page_flag then L else if fl =? branch_page_flag then if inline then None else B else None) = Some d ->
  fl = leaf_page_flag \/ fl = branch_page_flag /\ inline = false.
Proof.
  destruct (N.eqb_spec fl leaf_page_flag); [now left|].
  destruct (N.eqb_spec fl branch_page_flag); [|discriminate]. destruct inline; [discriminate | now right].
Qed.

Lemma dec_page_flag rd ps f base limit inline lo hi d : dec_page rd ps (S f) base limit inline lo hi = Some d ->
  u16 rd (base + 8) = leaf_page_flag \/ u16 rd (base + 8) = branch_page_flag /\ inline = false.
Proof. exact (flag_cases _ _ _ _ _). Qed.

(** One level of a branch page, complete: if the children (read through the same file) decode, the branch page
    decodes to the concatenation, with the page itself recorded first, the order flag computed from the written
    keys and the bounds flag depending on the children only. *)
Theorem branch_page_roundtrip ps f pg ov kcs pre post limit lo hi ds :
  pg < 2^64 -> ov < 2^32 ->
  N.of_nat (length kcs) < 65536 ->
  (forall kc, In kc kcs -> snd kc < 2^64) ->
  N.of_nat (length (enc_branch_page pg ov kcs)) < 2^32 ->
  N.of_nat (length pre) + N.of_nat (length (enc_branch_page pg ov kcs)) <= limit ->
  let rd := rd_of (pre ++ enc_branch_page pg ov kcs ++ post) in
  let keys := map fst kcs in
  mapM (fun kch : bytes * N * option bytes =>
          let '((k, c), h) := kch in
          dec_page rd ps f (c * ps) (c * ps + (u32 rd (c * ps + 12) + 1) * ps) false (Some k) h)
       (combine kcs (map Some (tl keys) ++ [hi])) = Some ds ->
  dec_page rd ps (S f) (N.of_nat (length pre)) limit false lo hi
  = Some {| r_ents := flat_map r_ents ds;
            r_pages := (pg, ov, branch_page_flag) :: flat_map r_pages ds;
            r_order := strictly_inc keys
                       && match keys with [] => true | k :: _ => opt_le lo k end
                       && forallb (fun k => opt_lt k hi) keys
                       && forallb r_order ds && negb (N.of_nat (length kcs) =? 0);
            r_bounds := forallb r_bounds ds |}.
Proof.
  intros Hpg Hov Hc Hch H32 Hlim rd keys Hds. subst keys.
  destruct (branch_elems_roundtrip pg ov kcs pre post limit Hpg Hov Hc Hch H32 Hlim) as (Hid & Hfl & Hcnt & Hovf & K1 & K2).
  fold rd in Hid, Hfl, Hcnt, Hovf, K1, K2.
  rewrite (dec_page_branch_unfold rd ps f _ limit lo hi Hfl). cbv zeta.
  rewrite K1, K2. unfold bytes in *. now rewrite Hds, Hid, Hovf, Hcnt.
Qed.

(** * concrete sanity checks of the writer definitions against hand-computed version-2 bytes *)
Example leaf_page_bytes :
  enc_leaf_page 3 [([1], [2; 3]); ([4; 5], [6])] =
  [3;0;0;0;0;0;0;0; 2;0; 2;0; 0;0;0;0;                       (* id 3, leaf, count 2, overflow 0 *)
   0;0;0;0; 32;0;0;0; 1;0;0;0; 2;0;0;0;                      (* flags 0, pos 32 (16+32 = 48), ksize 1, vsize 2 *)
   0;0;0;0; 19;0;0;0; 2;0;0;0; 1;0;0;0;                      (* flags 0, pos 19 (32+19 = 51), ksize 2, vsize 1 *)
   1; 2;3; 4;5; 6].
Proof. vm_compute. reflexivity. Qed.

Example leaf_page_decodes :
  dec_page (rd_of ([9;9;9;9] ++ enc_leaf_page 3 [([1], [2; 3]); ([4; 5], [6])] ++ [7;7])) 4096 1 4 4096 false None None
  = Some {| r_ents := [([1], Val [2;3]); ([4;5], Val [6])]; r_pages := [(3, 0, leaf_page_flag)];
            r_order := true; r_bounds := true |}.
Proof. vm_compute. reflexivity. Qed.

Example branch_page_bytes :
  enc_branch_page 5 0 [([1], 7); ([4; 5], 8)] =
  [5;0;0;0;0;0;0;0; 1;0; 2;0; 0;0;0;0;                       (* id 5, branch, count 2, overflow 0 *)
   32;0;0;0; 1;0;0;0; 7;0;0;0;0;0;0;0;                       (* pos 32, ksize 1, pgid 7 *)
   17;0;0;0; 2;0;0;0; 8;0;0;0;0;0;0;0;                       (* pos 17, ksize 2, pgid 8 *)
   1; 4;5].
Proof. vm_compute. reflexivity. Qed.

Example freelist_page_bytes :
  enc_freelist_page 2 0 [3; 300] =
  [2;0;0;0;0;0;0;0; 16;0; 2;0; 0;0;0;0;  3;0;0;0;0;0;0;0;  44;1;0;0;0;0;0;0].
Proof. vm_compute. reflexivity. Qed.

(** the boundary between the two freelist encodings, on the header bytes of actual lists; the count comes from
    [repeat_length], so the 65534 ids are never built *)
Example freelist_page_65534 :
  firstn 24 (enc_freelist_page 2 0 (repeat 3 (N.to_nat 65534))) =
  [2;0;0;0;0;0;0;0; 16;0; 254;255; 0;0;0;0;  3;0;0;0;0;0;0;0].                 (* count 0xFFFE, first id follows *)
Proof. rewrite enc_freelist_page_small; rewrite repeat_length, N2Nat.id; reflexivity. Qed.
Example freelist_page_65535 :
  firstn 32 (enc_freelist_page 2 0 (repeat 3 (N.to_nat 65535))) =
  [2;0;0;0;0;0;0;0; 16;0; 255;255; 0;0;0;0;  255;255;0;0;0;0;0;0;  3;0;0;0;0;0;0;0].   (* count 0xFFFF, n = 65535, first id *)
Proof. rewrite enc_freelist_page_large; rewrite repeat_length, N2Nat.id; reflexivity. Qed.

Print Assumptions freelist_page_roundtrip.
Print Assumptions freelist_page_header_roundtrip.
Print Assumptions leaf_page_ov_roundtrip.
Print Assumptions leaf_page_roundtrip.
Print Assumptions branch_elems_roundtrip.
Print Assumptions dec_page_branch_unfold.
Print Assumptions branch_page_roundtrip.
