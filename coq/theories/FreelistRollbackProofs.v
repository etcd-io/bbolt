(** Proofs about shared.Free / shared.Rollback of the freelist model (Freelist.v), and soundness /
    non-vacuity of the decision procedures [free_ok], [rollback_ok], [release_ok]. *)
From Bbolt Require Import Base BaseProofs Freelist FreelistProofs FreelistReleaseProofs.
From Coq Require Import Sorting.Permutation.

Theorem free_ok_sound txid id ov sb sa : free_ok txid id ov sb sa = true ->
  free sa = free sb /\ Permutation (pending_ids (pending sa)) (pending_ids (pending sb) ++ run id (ov + 1)) /\
  forall x, In x (run id (ov + 1)) -> exists a, In (txid, x, a) (pend_pairs (pending sa)).
Proof.
  unfold free_ok. intros H. apply andb_prop in H. destruct H as [H H3]. apply andb_prop in H. destruct H as [H1 H2].
  apply eqlN_eq in H1, H2. split; [exact H1|]. split; [now apply sortN_eq_iff|].
  intros x Hx. rewrite forallb_forall in H3. specialize (H3 x Hx). apply existsb_exists in H3.
  destruct H3 as [[[t p] a] [Hin Hc]]. cbn [fst snd] in Hc. apply andb_true_iff in Hc.
  destruct Hc as [E1 E2]. apply N.eqb_eq in E1, E2. subst. exists a. exact Hin.
Qed.

Theorem rollback_ok_sound txid sb sa : rollback_ok txid sb sa = true ->
  free sa = free sb /\ (forall e, In e (pending sa) -> fst e <> txid) /\
  Permutation (pending_ids (pending sa)) (map (fun t => snd (fst t)) (filter (fun t => negb (fst (fst t) =? txid)) (pend_pairs (pending sb)))).
Proof.
  unfold rollback_ok. intros H. apply andb_prop in H. destruct H as [H H3]. apply andb_prop in H. destruct H as [H1 H2].
  apply eqlN_eq in H1, H2. split; [exact H1|]. split.
  - intros e He E. apply negb_true_iff in H3. rewrite <- not_true_iff_false in H3. apply H3.
    apply existsb_exists. exists e. split; [exact He|]. now apply N.eqb_eq.
  - symmetry. now apply sortN_eq_iff.
Qed.

Theorem release_ok_sound sb sa : release_ok sb sa = true ->
  Permutation (cache sa) (cache sb) /\ (forall x, In x (free sb) -> In x (free sa)) /\
  (forall tid p a, In (tid, p, a) (pend_pairs (pending sb)) -> In p (free sa) -> ~ In p (free sb) ->
     forall r, In r (readers sb) -> visible_to a tid r = false) /\
  (readers sb = [] -> pending sa = []).
Proof.
  unfold release_ok. intros H. apply andb_prop in H. destruct H as [H H4]. apply andb_prop in H. destruct H as [H H3].
  apply andb_prop in H. destruct H as [H1 H2].
  apply eqlN_eq in H1. split; [now apply sortN_eq_iff|]. split; [|split].
  - intros x Hx. rewrite forallb_forall in H2. apply memN_in. now apply H2.
  - intros tid p a Hin Hsa Hnsb r Hr. rewrite forallb_forall in H3. specialize (H3 _ Hin).
    cbv beta iota in H3. apply orb_true_iff in H3. destruct H3 as [H3|H3].
    + exfalso. apply negb_true_iff in H3. apply memN_false in H3. apply H3.
      apply filter_In. split; [exact Hsa|]. apply negb_true_iff. now apply memN_false.
    + apply negb_true_iff in H3. destruct (visible_to a tid r) eqn:V; [|reflexivity].
      rewrite <- not_true_iff_false in H3. exfalso. apply H3. apply existsb_exists. eauto.
  - intros Hr. rewrite Hr in H4. destruct (pending sa); [reflexivity | discriminate].
Qed.

Theorem free_page_free_ok txid id ov s s' :
  free_page txid id ov s = Ok s' -> keys_unique (pending s) -> free_ok txid id ov s s' = true.
Proof.
  intros H Hu. unfold free_ok. rewrite !andb_true_iff. split; [split|].
  - destruct (free_page_free_unchanged _ _ _ _ _ H) as [-> _]. apply eqlN_refl.
  - apply eqlN_true_iff, sortN_eq_iff, (free_page_pending _ _ _ _ _ Hu H).
  - apply forallb_forall. intros x Hx. apply existsb_exists.
    exists (txid, x, atxof id (allocs s)). cbn [fst snd]. rewrite !N.eqb_refl. split; [|reflexivity].
    apply free_page_ok in H. destruct H as [-> _]. apply in_pend_pairs.
    eexists. split; [apply alookup_in, alookup_aput|]. cbn [fst snd t_ids]. split; [reflexivity|].
    apply in_app_iff. right. exact (in_map (fun y => (y, atxof id (allocs s))) _ _ Hx).
Qed.

Lemma pairs_filter_aremove txid l :
  map (fun t => snd (fst t)) (filter (fun t => negb (fst (fst t) =? txid)) (pend_pairs l))
  = pending_ids (aremove txid l).
Proof.
  induction l as [|[k v] l IH]; [reflexivity|].
  rewrite pend_pairs_cons, filter_app, map_app, IH. cbn [aremove fst snd].
  destruct (N.eqb_spec txid k) as [->|Hne].
  - rewrite filter_none; [reflexivity|]. intros x Hx. apply in_map_iff in Hx.
    destruct Hx as [pa [<- _]]. cbn [fst]. now rewrite N.eqb_refl.
  - rewrite filter_id.
    + rewrite pending_ids_cons. cbn [snd]. rewrite map_map. reflexivity.
    + intros x Hx. apply in_map_iff in Hx. destruct Hx as [pa [<- _]]. cbn [fst].
      destruct (N.eqb_spec k txid); [congruence | reflexivity].
Qed.

(** what Rollback's restore loop does to [allocs] *)
Definition aset0 (al : list (N * N)) (pa : N * N) : list (N * N) :=
  if snd pa =? 0 then al else aset (fst pa) (snd pa) al.
Definition restored (l al : list (N * N)) : list (N * N) := fold_left aset0 l al.

Definition own_alloc (txid : N) (l : list (N * N)) : Prop := exists pa, In pa l /\ snd pa = txid /\ txid <> 0.

Lemma rollback_none txid s : alookup txid (pending s) = None -> rollback txid s = Ok s.
Proof. unfold rollback. now intros ->. Qed.

Lemma rollback_some txid s t : alookup txid (pending s) = Some t ->
  (own_alloc txid (t_ids t) /\ rollback txid s = Panic) \/
  (~ own_alloc txid (t_ids t) /\
   rollback txid s = Ok {| free := free s; pending := aremove txid (pending s);
                           allocs := filter (fun e => negb (snd e =? txid)) (restored (t_ids t) (allocs s));
                           readers := readers s |}).
Proof.
  intros Hl. unfold rollback. rewrite Hl.
  assert (Hex : existsb (fun pa => (snd pa =? txid) && negb (snd pa =? 0)) (t_ids t) = true <->
                own_alloc txid (t_ids t)).
  { unfold own_alloc. rewrite existsb_exists. split; intros [pa [Hin H]]; exists pa; (split; [exact Hin|]).
    - apply andb_true_iff in H. destruct H as [E1 E2]. apply N.eqb_eq in E1.
      apply negb_true_iff, N.eqb_neq in E2. split; congruence.
    - destruct H as [-> Hne]. rewrite N.eqb_refl. now apply negb_true_iff, N.eqb_neq. }
  destruct (existsb _ _); [left | right]; (split; [|reflexivity]).
  - now apply Hex.
  - intros H. apply Hex in H. discriminate.
Qed.

Lemma rollback_frame txid s s2 : rollback txid s = Ok s2 ->
  free s2 = free s /\ readers s2 = readers s /\ pending s2 = aremove txid (pending s).
Proof.
  destruct (alookup txid (pending s)) as [t|] eqn:Hl.
  - destruct (rollback_some _ _ _ Hl) as [[_ E]|[_ E]]; rewrite E; [discriminate|].
    intros [= <-]. repeat split.
  - rewrite (rollback_none _ _ Hl). intros [= <-]. repeat split. symmetry. now apply aremove_notin.
Qed.

Theorem rollback_rollback_ok txid s s' : rollback txid s = Ok s' -> rollback_ok txid s s' = true.
Proof.
  intros H. apply rollback_frame in H. destruct H as (Hf & _ & Hp).
  unfold rollback_ok. rewrite Hf, Hp, pairs_filter_aremove, !eqlN_refl. cbn [andb].
  apply negb_true_iff, not_true_iff_false. intros Hex. apply existsb_exists in Hex.
  destruct Hex as [e [Hin E]]. apply N.eqb_eq in E. apply in_aremove in Hin. tauto.
Qed.

Definition frees_run (txid : N) (frees : list (N * N)) (r : res fl) : res fl :=
  fold_left (fun r f => match r with Ok s0 => free_page txid (fst f) (snd f) s0 | e => e end) frees r.

Lemma frees_run_stuck txid fs r : (forall s, r <> Ok s) -> frees_run txid fs r = r.
Proof.
  intros H. induction fs as [|f fs IH]; [reflexivity|]. destruct r as [s| |]; [now destruct (H s) | exact IH ..].
Qed.

Lemma frees_run_cons txid f fs s s1 : frees_run txid (f :: fs) (Ok s) = Ok s1 ->
  exists s', free_page txid (fst f) (snd f) s = Ok s' /\ frees_run txid fs (Ok s') = Ok s1.
Proof.
  unfold frees_run at 1. cbn [fold_left]. fold (frees_run txid fs (free_page txid (fst f) (snd f) s)).
  destruct (free_page txid (fst f) (snd f) s) as [s'| |]; [eauto | rewrite frees_run_stuck; discriminate ..].
Qed.

Lemma frees_run_ind txid (P : list (N * N) -> fl -> fl -> Prop) :
  (forall s, P [] s s) ->
  (forall f fs s s' s1, free_page txid (fst f) (snd f) s = Ok s' -> frees_run txid fs (Ok s') = Ok s1 ->
     P fs s' s1 -> P (f :: fs) s s1) ->
  forall fs s s1, frees_run txid fs (Ok s) = Ok s1 -> P fs s s1.
Proof.
  intros H0 HS. induction fs as [|f fs IH]; intros s s1 H.
  - injection H as <-. apply H0.
  - apply frees_run_cons in H. destruct H as [s' [H1 H2]]. eauto.
Qed.

Lemma frees_run_inv txid : forall fs s s1, frees_run txid fs (Ok s) = Ok s1 ->
  free s1 = free s /\ readers s1 = readers s /\ aremove txid (pending s1) = aremove txid (pending s)
  /\ (fs <> [] -> exists t, alookup txid (pending s1) = Some t).
Proof.
  apply frees_run_ind; [now repeat split|].
  intros f fs s s' s1 H1 H2 (E1 & E2 & E3 & E4).
  destruct (free_page_free_unchanged _ _ _ _ _ H1) as [F1 F2]. pose proof (free_page_others _ _ _ _ _ H1) as F3.
  split; [congruence|]. split; [congruence|]. split; [congruence|].
  intros _. destruct fs as [|g fs]; [|apply E4; discriminate].
  injection H2 as <-. apply free_page_ok in H1. destruct H1 as [-> _]. eexists. apply alookup_aput.
Qed.

(** Rollback undoes the Frees of the transaction on free / pending / readers, whatever the pending map. *)
Theorem frees_then_rollback_gen txid frees s s1 s2 :
  alookup txid (pending s) = None ->
  frees_run txid frees (Ok s) = Ok s1 ->
  rollback txid s1 = Ok s2 ->
  free s2 = free s /\ pending s2 = pending s /\ readers s2 = readers s.
Proof.
  intros Hl H1 H2. apply frees_run_inv in H1. destruct H1 as (E1 & E2 & E3 & _).
  apply rollback_frame in H2. destruct H2 as (F1 & F2 & F3).
  split; [congruence|]. split; [|congruence].
  rewrite F3, E3. now apply aremove_notin.
Qed.

(** the form C09 quotes, with the fold written out; [keys_unique] plays no part in it *)
Theorem frees_then_rollback : forall txid frees s s1 s2,
  keys_unique (pending s) -> alookup txid (pending s) = None ->
  fold_left (fun r f => match r with Ok s0 => free_page txid (fst f) (snd f) s0 | e => e end) frees (Ok s) = Ok s1 ->
  rollback txid s1 = Ok s2 ->
  free s2 = free s /\ pending s2 = pending s /\ readers s2 = readers s.
Proof. intros txid frees s s1 s2 _. apply frees_then_rollback_gen. Qed.

Definition inrun (f : N * N) (p : N) : bool := memN p (run (fst f) (snd f + 1)).

Lemma inrun_spec f p : inrun f p = true <-> fst f <= p <= fst f + snd f.
Proof. unfold inrun. rewrite memN_in, run_in. lia. Qed.

Lemma inrun_head f : inrun f (fst f) = true.
Proof. apply inrun_spec. lia. Qed.

Lemma tids_in_cache txid s p : In p (map fst (tids txid s)) -> In p (cache s).
Proof.
  unfold tids, aget, cache. destruct (alookup txid (pending s)) as [t|] eqn:E; [|intros []].
  intros H. apply in_or_app. right. unfold pending_ids. apply in_flat_map. exists (txid, t).
  split; [now apply alookup_in | exact H].
Qed.

(** a page already freed by [txid] is in the cache, so the guard of Free keeps it out of later runs *)
Lemma later_disjoint txid p : forall fs s s1, frees_run txid fs (Ok s) = Ok s1 ->
  In p (map fst (tids txid s)) -> forall g, In g fs -> inrun g p = false.
Proof.
  refine (frees_run_ind txid _ _ _); [intros s _ g []|]. intros f fs s s' s1 H1 _ IH Hp g [<-|Hg].
  - apply not_true_iff_false. intros E. apply memN_in in E.
    apply (free_page_fresh _ _ _ _ _ H1 p E). now apply (tids_in_cache txid).
  - apply IH; [|exact Hg]. rewrite (free_page_tids _ _ _ _ _ H1), map_app, in_app_iff. now left.
Qed.

Lemma first_run_disjoint txid f fs s s' s1 :
  free_page txid (fst f) (snd f) s = Ok s' -> frees_run txid fs (Ok s') = Ok s1 ->
  forall p, inrun f p = true -> forall g, In g fs -> inrun g p = false.
Proof.
  intros H1 H2 p Hp. apply (later_disjoint _ _ _ _ _ H2).
  rewrite (free_page_tids _ _ _ _ _ H1), map_app, map_fst_pair, in_app_iff. right. now apply memN_in.
Qed.

Lemma first_head_distinct txid f fs s s' s1 :
  free_page txid (fst f) (snd f) s = Ok s' -> frees_run txid fs (Ok s') = Ok s1 ->
  forall g, In g fs -> fst g <> fst f.
Proof.
  intros H1 H2 g Hg E. pose proof (first_run_disjoint _ _ _ _ _ _ H1 H2 _ (inrun_head f) g Hg) as Hno.
  rewrite <- E, inrun_head in Hno. discriminate.
Qed.

(** The pending list of [txid] after the Frees: each run, every page of it with the alloc record
    its FIRST page had at the start (an earlier Free removes only the record of its own first page,
    and the first pages are distinct). *)
Lemma frees_run_tids txid : forall fs s s1, frees_run txid fs (Ok s) = Ok s1 ->
  tids txid s1 = tids txid s ++
    flat_map (fun f => map (fun x => (x, atxof (fst f) (allocs s))) (run (fst f) (snd f + 1))) fs.
Proof.
  refine (frees_run_ind txid _ _ _); [intros s; now rewrite app_nil_r|]. intros f fs s s' s1 H1 H2 IH.
  rewrite IH, (free_page_tids _ _ _ _ _ H1), <- app_assoc. cbn [flat_map]. do 2 f_equal.
  rewrite !flat_map_concat_map. f_equal. apply map_ext_in. intros g Hg. unfold atxof.
  now rewrite (free_page_allocs _ _ _ _ _ H1), (alookup_aremove_ne _ _ _ (first_head_distinct _ _ _ _ _ _ H1 H2 g Hg)).
Qed.

(** Rollback panics exactly when one of the freed pages had been allocated by the same
    transaction (model of the branch the pinned code mishandles). *)
Theorem frees_then_rollback_no_panic txid frees s s1 :
  alookup txid (pending s) = None ->
  frees_run txid frees (Ok s) = Ok s1 ->
  (forall f, In f frees -> alookup (fst f) (allocs s) <> Some txid) ->
  exists s2, rollback txid s1 = Ok s2.
Proof.
  intros Hl H Hno. destruct (alookup txid (pending s1)) as [t|] eqn:E; [|rewrite rollback_none; eauto].
  destruct (rollback_some _ _ _ E) as [[(pa & Hin & C1 & C2) _]|[_ E2]]; [exfalso | eauto].
  rewrite <- (tids_some _ _ _ E), (frees_run_tids _ _ _ _ H), (tids_none _ _ Hl) in Hin.
  apply in_flat_map in Hin. destruct Hin as (f & Hf & Hin). apply in_map_iff in Hin.
  destruct Hin as (x & <- & _). cbn [snd] in C1. apply (Hno f Hf). unfold atxof in C1.
  destruct (alookup (fst f) (allocs s)); congruence.
Qed.

Theorem frees_then_rollback_panics txid frees s s1 f :
  frees_run txid frees (Ok s) = Ok s1 ->
  In f frees -> alookup (fst f) (allocs s) = Some txid -> txid <> 0 ->
  rollback txid s1 = Panic.
Proof.
  intros H Hf Ha Hne.
  assert (Q : In (fst f, txid) (tids txid s1)).
  { rewrite (frees_run_tids _ _ _ _ H). apply in_app_iff. right. apply in_flat_map. exists f. split; [exact Hf|].
    apply in_map_iff. exists (fst f). unfold atxof. rewrite Ha. split; [reflexivity | apply memN_in, inrun_head]. }
  destruct (alookup txid (pending s1)) as [t|] eqn:E; [|now rewrite (tids_none _ _ E) in Q].
  rewrite (tids_some _ _ _ E) in Q.
  destruct (rollback_some _ _ _ E) as [[_ E2]|[Hn _]]; [exact E2|]. destruct Hn. now exists (fst f, txid).
Qed.

Lemma restored_cons pa l al : restored (pa :: l) al = restored l (aset0 al pa).
Proof. reflexivity. Qed.

Lemma restored_app l l' al : restored (l ++ l') al = restored l' (restored l al).
Proof. apply fold_left_app. Qed.

Lemma restored_congr p l : forall al al', alookup p al = alookup p al' ->
  alookup p (restored l al) = alookup p (restored l al').
Proof.
  induction l as [|pa l IH]; intros al al' H; [exact H|]. rewrite !restored_cons. apply IH.
  unfold aset0. destruct (snd pa =? 0); [exact H|]. rewrite !alookup_aset.
  destruct (p =? fst pa); [reflexivity | exact H].
Qed.

(** the pages [xs] of one Free, all recorded with the alloctx [a] (0 = unknown: nothing to restore) *)
Lemma restored_run p a xs : forall al,
  alookup p (restored (map (fun x => (x, a)) xs) al)
  = if negb (a =? 0) && memN p xs then Some a else alookup p al.
Proof.
  induction xs as [|x xs IH]; intros al; [now rewrite andb_false_r|]. cbn [map]. rewrite restored_cons, IH.
  unfold aset0, memN. cbn [fst snd existsb]. destruct (a =? 0); [reflexivity|]. cbn [negb andb].
  rewrite alookup_aset. now destruct (p =? x), (existsb (N.eqb p) xs).
Qed.

Lemma keys_unique_restored l : forall al, keys_unique al -> keys_unique (restored l al).
Proof.
  induction l as [|pa l IH]; intros al H; [exact H|]. rewrite restored_cons. apply IH.
  unfold aset0. destruct (snd pa =? 0); [exact H | now apply keys_unique_aset].
Qed.

Definition strip (txid : N) (o : option N) : option N :=
  match o with Some a => if a =? txid then None else Some a | None => None end.

Lemma alookup_filter_strip txid (l : list (N * N)) p : keys_unique l ->
  alookup p (filter (fun e => negb (snd e =? txid)) l) = strip txid (alookup p l).
Proof.
  unfold keys_unique. induction l as [|[k v] l IH]; [reflexivity|]. cbn [map fst]. intros H.
  inversion H as [|? ? Hn Hu]; subst. cbn [filter snd alookup].
  destruct (v =? txid) eqn:Ev; cbn [negb].
  - rewrite (IH Hu). destruct (N.eqb_spec p k) as [->|Hne]; [|reflexivity].
    rewrite (proj2 (alookup_none_iff _ _) Hn). cbn [strip]. now rewrite Ev.
  - cbn [alookup]. destruct (N.eqb_spec p k) as [->|Hne]; [cbn [strip]; now rewrite Ev|].
    exact (IH Hu).
Qed.

Definition nozero (al : list (N * N)) : Prop := forall e, In e al -> snd e <> 0.

Lemma nozero_aremove k al : nozero al -> nozero (aremove k al).
Proof. intros H e He. apply in_aremove in He. apply H. tauto. Qed.

(** the alloc record page [p] would have after Rollback's restore loop (before the final sweep that
    deletes the records owned by [txid]) *)
Definition restore_rec (txid : N) (s : fl) (p : N) : option N := alookup p (restored (tids txid s) (allocs s)).

(** the same after the Frees [fs], said of the state before them: a page of a freed run gets the record of
    the run's first page, if that is known *)
Definition restore_rec_after (txid : N) (fs : list (N * N)) (s : fl) (p : N) : option N :=
  match find (fun f => inrun f p) fs with
  | Some f => match alookup (fst f) (allocs s) with Some a => Some a | None => restore_rec txid s p end
  | None => restore_rec txid s p
  end.

Lemma restore_rec_frees txid p : forall fs s s1, frees_run txid fs (Ok s) = Ok s1 -> nozero (allocs s) ->
  restore_rec txid s1 p = restore_rec_after txid fs s p.
Proof.
  refine (frees_run_ind txid _ _ _); [reflexivity|]. intros f fs s s' s1 H1 H2 IH Hz.
  pose proof (free_page_allocs _ _ _ _ _ H1) as Hal.
  rewrite IH by (rewrite Hal; now apply nozero_aremove). clear IH.
  (* one Free: a known alloctx is written back on every page of its run *)
  assert (HB : restore_rec txid s' p =
               if inrun f p
               then match alookup (fst f) (allocs s) with Some a => Some a | None => restore_rec txid s p end
               else restore_rec txid s p).
  { unfold restore_rec. rewrite (free_page_tids _ _ _ _ _ H1), restored_app, Hal, restored_run. fold (inrun f p).
    unfold atxof. destruct (inrun f p) eqn:Ein; rewrite ?andb_true_r, ?andb_false_r.
    - destruct (alookup (fst f) (allocs s)) as [a|] eqn:Ea; [|now rewrite (aremove_notin _ _ Ea)].
      apply alookup_in, Hz in Ea. now destruct (N.eqb_spec a 0).
    - apply restored_congr, alookup_aremove_ne. intros ->. now rewrite inrun_head in Ein. }
  unfold restore_rec_after. cbn [find]. rewrite HB. destruct (find (fun g => inrun g p) fs) as [g|] eqn:Ef.
  - apply find_some in Ef. destruct Ef as [Hg Hgp]. destruct (inrun f p) eqn:Ein.
    + rewrite (first_run_disjoint _ _ _ _ _ _ H1 H2 p Ein g Hg) in Hgp. discriminate.
    + now rewrite Hal, (alookup_aremove_ne _ _ _ (first_head_distinct _ _ _ _ _ _ H1 H2 g Hg)).
  - now destruct (inrun f p).
Qed.

Lemma frees_run_allocs_unique txid : forall fs s s1, frees_run txid fs (Ok s) = Ok s1 ->
  keys_unique (allocs s) -> keys_unique (allocs s1).
Proof.
  refine (frees_run_ind txid _ _ _); [auto|]. intros f fs s s' s1 H1 _ IH Hu. apply IH.
  rewrite (free_page_allocs _ _ _ _ _ H1). now apply keys_unique_aremove.
Qed.

(** The alloc records after Free* ; Rollback, exactly.  A page of a freed run gets the record of
    the run's FIRST page (Free stores one alloctx for the whole run and Rollback writes it back for
    every page of the run); every other record is unchanged; finally records owned by [txid] are
    swept.  With no Free at all Rollback returns early and sweeps nothing, hence [frees <> []]. *)
Theorem frees_then_rollback_allocs txid frees s s1 s2 :
  keys_unique (allocs s) -> nozero (allocs s) ->
  alookup txid (pending s) = None -> frees <> [] ->
  frees_run txid frees (Ok s) = Ok s1 ->
  rollback txid s1 = Ok s2 ->
  forall p, alookup p (allocs s2) =
    strip txid (match find (fun f => inrun f p) frees with
                | Some f => match alookup (fst f) (allocs s) with
                            | Some a => Some a
                            | None => alookup p (allocs s) end
                | None => alookup p (allocs s) end).
Proof.
  intros Hu Hz Hl Hne H1 H2 p.
  pose proof (restore_rec_frees txid p _ _ _ H1 Hz) as HB.
  destruct (frees_run_inv _ _ _ _ H1) as (_ & _ & _ & Hex). destruct (Hex Hne) as [t Ht].
  destruct (rollback_some _ _ _ Ht) as [[_ E]|[_ E]]; rewrite E in H2; [discriminate|]. injection H2 as <-.
  cbn [allocs].
  rewrite alookup_filter_strip by now apply keys_unique_restored, (frees_run_allocs_unique _ _ _ _ H1).
  f_equal. unfold restore_rec in HB. rewrite (tids_some _ _ _ Ht) in HB. rewrite HB. unfold restore_rec_after, restore_rec.
  now rewrite (tids_none _ _ Hl).
Qed.

(** Corollary: if no alloc record of [s] is owned by [txid] (it allocated nothing yet), then
    every page that is not an overflow page of a freed run has its alloc record restored. *)
Theorem frees_then_rollback_allocs_restored txid frees s s1 s2 :
  keys_unique (allocs s) -> nozero (allocs s) ->
  (forall e, In e (allocs s) -> snd e <> txid) ->
  alookup txid (pending s) = None ->
  frees_run txid frees (Ok s) = Ok s1 ->
  rollback txid s1 = Ok s2 ->
  forall p, (forall f, In f frees -> ~ (fst f < p <= fst f + snd f)) ->
  alookup p (allocs s2) = alookup p (allocs s).
Proof.
  intros Hu Hz Hown Hl H1 H2 p Hp.
  assert (Hstrip : forall k, strip txid (alookup k (allocs s)) = alookup k (allocs s)).
  { intros k. destruct (alookup k (allocs s)) as [a|] eqn:E; [|reflexivity]. cbn [strip].
    apply alookup_in in E. apply Hown in E. cbn [snd] in E.
    destruct (N.eqb_spec a txid); [contradiction | reflexivity]. }
  destruct frees as [|f0 fs0].
  - injection H1 as <-. rewrite (rollback_none _ _ Hl) in H2. injection H2 as <-. reflexivity.
  - assert (Hne : f0 :: fs0 <> []) by discriminate.
    rewrite (frees_then_rollback_allocs _ _ _ _ _ Hu Hz Hl Hne H1 H2 p).
    destruct (find _ _) as [f|] eqn:Ef; [|apply Hstrip].
    apply find_some in Ef. destruct Ef as [Hf Hin].
    assert (p = fst f).
    { specialize (Hp f Hf). apply inrun_spec in Hin. lia. }
    subst p. rewrite <- (Hstrip (fst f)) at 2. destruct (alookup (fst f) (allocs s)); reflexivity.
Qed.

Corollary frees_then_rollback_allocs_single txid frees s s1 s2 :
  keys_unique (allocs s) -> nozero (allocs s) ->
  (forall e, In e (allocs s) -> snd e <> txid) ->
  alookup txid (pending s) = None ->
  (forall f, In f frees -> snd f = 0) ->
  frees_run txid frees (Ok s) = Ok s1 ->
  rollback txid s1 = Ok s2 ->
  forall p, alookup p (allocs s2) = alookup p (allocs s).
Proof.
  intros Hu Hz Hown Hl Hov H1 H2 p.
  apply (frees_then_rollback_allocs_restored _ _ _ _ _ Hu Hz Hown Hl H1 H2).
  intros f Hf. rewrite (Hov f Hf). lia.
Qed.

Lemma frees_pairwise txid p : forall fs s s1, frees_run txid fs (Ok s) = Ok s1 ->
  forall f g, In f fs -> In g fs -> inrun f p = true -> inrun g p = true -> fst g = fst f.
Proof.
  refine (frees_run_ind txid _ _ _); [intros s f g []|].
  intros h fs s s' s1 H1 H2 IH f g Hf Hg Hfp Hgp.
  pose proof (first_run_disjoint _ _ _ _ _ _ H1 H2 p) as Hd.
  destruct Hf as [<-|Hf]; destruct Hg as [<-|Hg]; [reflexivity | | | now apply IH].
  - rewrite (Hd Hfp g Hg) in Hgp. discriminate.
  - rewrite (Hd Hgp f Hf) in Hfp. discriminate.
Qed.

(** ... and an overflow page of a freed run ends up with the record of the run's first page. *)
Corollary frees_then_rollback_allocs_overflow txid frees s s1 s2 f a :
  keys_unique (allocs s) -> nozero (allocs s) ->
  alookup txid (pending s) = None ->
  frees_run txid frees (Ok s) = Ok s1 ->
  rollback txid s1 = Ok s2 ->
  In f frees -> alookup (fst f) (allocs s) = Some a ->
  forall p, fst f <= p <= fst f + snd f -> alookup p (allocs s2) = Some a.
Proof.
  intros Hu Hz Hl H1 H2 Hf Ha p Hp.
  assert (Hne : frees <> []) by (intros ->; destruct Hf).
  (* a <> txid because Rollback did not panic *)
  assert (Hat : a <> txid).
  { intros ->. assert (txid <> 0) by (apply alookup_in in Ha; exact (Hz _ Ha)).
    rewrite (frees_then_rollback_panics _ _ _ _ _ H1 Hf Ha) in H2 by assumption. discriminate. }
  rewrite (frees_then_rollback_allocs _ _ _ _ _ Hu Hz Hl Hne H1 H2 p).
  assert (Hinr : inrun f p = true) by now apply inrun_spec.
  destruct (find (fun f0 => inrun f0 p) frees) as [g|] eqn:Ef.
  - apply find_some in Ef. destruct Ef as [Hg Hgp].
    rewrite (frees_pairwise _ _ _ _ _ H1 f g Hf Hg Hinr Hgp), Ha. cbn [strip].
    destruct (N.eqb_spec a txid); [contradiction | reflexivity].
  - exfalso. apply (find_none _ _ Ef) in Hf. cbv beta in Hf. congruence.
Qed.

(** The naive statement "Rollback restores [allocs]" is FALSE for a run with overflow pages:
    page 5 (allocated by tx 1) is freed with one overflow page by tx 2; after Rollback(2) page 6 has
    an alloc record it never had.  (shared.go does the same: Free stores allocs[p.Id()] for every
    page of the run and Rollback writes `t.allocs[pgid] = tx` for each of them.) *)
Example rollback_allocs_overflow_not_restored :
  let s := {| free := []; pending := []; allocs := [(5, 1)]; readers := [] |} in
  exists s1 s2, free_page 2 5 1 s = Ok s1 /\ rollback 2 s1 = Ok s2
    /\ alookup 6 (allocs s) = None /\ alookup 6 (allocs s2) = Some 1
    /\ allocs s2 = [(6, 1); (5, 1)].
Proof. vm_compute. do 2 eexists. repeat split; reflexivity. Qed.

Example rollback_own_alloc_panics :
  let s := {| free := []; pending := []; allocs := [(5, 2)]; readers := [] |} in
  exists s1, free_page 2 5 0 s = Ok s1 /\ rollback 2 s1 = Panic.
Proof. vm_compute. eexists. split; reflexivity. Qed.

(** With no Free at all Rollback returns early: records owned by [txid] are NOT swept. *)
Example rollback_without_free_keeps_own_allocs :
  let s := {| free := []; pending := []; allocs := [(5, 2)]; readers := [] |} in
  rollback 2 s = Ok s.
Proof. vm_compute. reflexivity. Qed.

Theorem release_pending_pages_release_ok s :
  NoDup (pending_ids (pending s)) ->
  (forall r, In r (readers s) -> r < MAXU64) ->
  (forall e, In e (pending s) -> fst e < MAXU64) ->
  release_ok s (release_pending_pages s) = true.
Proof.
  intros Hnd Hr He.
  destruct (release_pending_pages_spec s) as (freed & E & _ & _ & Pf & Pc).
  set (s' := release_pending_pages s) in *.
  unfold release_ok. rewrite !andb_true_iff. split; [split; [split|]|].
  - apply eqlN_true_iff, sortN_eq_iff, Pc.
  - apply forallb_forall. intros x Hx. apply memN_in.
    eapply Permutation_in; [apply Permutation_sym; exact Pf|]. apply in_or_app. now left.
  - apply forallb_forall. intros [[tid p] a] Hin.
    destruct (memN p (filter (fun x => negb (memN x (free s))) (free s'))) eqn:Em; [|reflexivity].
    cbn [negb orb]. apply negb_true_iff, not_true_iff_false. intros Hex.
    apply existsb_exists in Hex. destruct Hex as [r [Hrr Hv]].
    apply memN_in, filter_In in Em. destruct Em as [Hs' Hns].
    apply negb_true_iff, memN_false in Hns.
    assert (Hfr : In p freed).
    { apply (Permutation_in _ Pf), in_app_or in Hs'. tauto. }
    (* pending page ids are distinct, so a freed page is no longer pending *)
    assert (Hnot : ~ In (tid, p, a) (pend_pairs (pending s'))).
    { intros Hin'. apply (NoDup_app_disjoint (pending_ids (pending s')) freed p).
      - eapply Permutation_NoDup; [exact (release_pending_gen_conserves _ _ _ _ E) | exact Hnd].
      - apply pending_ids_in. eauto.
      - exact Hfr. }
    pose proof (release_pending_gen_safe _ _ _ _ (sortN_sorted_le _)
                  (fun r Hr' => Hr r (proj1 (sortN_in r _) Hr')) E tid p a Hin Hnot r
                  (proj2 (sortN_in r _) Hrr)) as Hn.
    rewrite needs_visible_to in Hn. congruence.
  - destruct (readers s) eqn:Er; [|reflexivity].
    now rewrite (release_pending_gen_all_without_readers _ _ _ He E).
Qed.
