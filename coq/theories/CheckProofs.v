(** Check.v, the Gallina model of Tx.check: for each stage which errors it reports and exactly when it is silent; what a
    clean verdict says of the visited pages and, for a root that is one leaf page, how it relates to the accounting
    predicate of the decoder.  The examples at the end show what the check does not see. *)
From Bbolt Require Import Base Consts BaseProofs Spec SpecProofs Layout LayoutEnc Check LayoutProofs LayoutPageProofs.

Lemma run_errs_in {B} (c : N -> bool) (C : N -> Prop) (e : N -> B) n y :
  (forall i, c i = true <-> C i) ->
  In y (flat_map (fun i => if c i then [e i] else []) (run 0 n)) <-> exists i, y = e i /\ i < n /\ C i.
Proof.
  intros HC. rewrite in_flat_map. split.
  - intros (i & Hi & H). destruct (c i) eqn:E; [|destruct H]. destruct H as [<- | []].
    exists i. split; [reflexivity|]. split; [apply run0_in, Hi | apply HC, E].
  - intros (i & -> & Hi & Hc). exists i. split; [apply run0_in, Hi|]. apply HC in Hc. rewrite Hc. left; reflexivity.
Qed.

(** the ids Tx.check marks reachable before the walk: the freelist run, newest first, then the two meta pages *)
Lemma seed_in (flrun : list N) id : In id (rev flrun ++ [1; 0]) <-> In id (flrun ++ [0; 1]).
Proof. rewrite !in_app_iff, <- in_rev. cbn [In]. tauto. Qed.

Lemma in_seed (flrun : list N) id : In id (rev flrun ++ [1; 0]) <-> In id flrun \/ id < 2.
Proof. rewrite in_app_iff, <- in_rev. apply or_iff_compat_l. cbn [In]. lia. Qed.

Definition fold_opt {A B} (F : B -> A -> option A) (l : list B) (o : option A) : option A :=
  fold_left (fun a i => match a with None => None | Some a' => F i a' end) l o.

Lemma fold_opt_none {A B} (F : B -> A -> option A) l : fold_opt F l None = None.
Proof. induction l as [|i l IH]; [reflexivity | exact IH]. Qed.

Lemma fold_opt_cons {A B} (F : B -> A -> option A) i l a : fold_opt F (i :: l) (Some a) = fold_opt F l (F i a).
Proof. reflexivity. Qed.

Lemma fold_opt_inv {A B} (P : A -> Prop) (F : B -> A -> option A) l :
  (forall i a a', In i l -> P a -> F i a = Some a' -> P a') ->
  forall s s', P s -> fold_opt F l (Some s) = Some s' -> P s'.
Proof.
  intros Hstep s s' Hs. revert s'. apply (fold_left_inv (fun o => forall s', o = Some s' -> P s')).
  - intros [a|] i Hi Ha s' E; [exact (Hstep i a s' Hi (Ha a eq_refl) E) | discriminate E].
  - intros s' [= <-]. exact Hs.
Qed.

Lemma fold_opt_lock {A B} (R : list N -> A -> A -> Prop) (F : B -> A -> option A) (G : B -> option (list N)) (l : list B) :
  (forall a, R [] a a) -> (forall p1 p2 a b c, R p1 a b -> R p2 b c -> R (p2 ++ p1) a c) ->
  (forall i a a', In i l -> F i a = Some a' -> exists p, G i = Some p /\ R p a a') ->
  forall s s' acc, fold_opt F l (Some s) = Some s' ->
  exists p, fold_opt (fun i l0 => match G i with None => None | Some l' => Some (l' ++ l0) end) l (Some acc) = Some (p ++ acc)
            /\ R p s s'.
Proof.
  intros Hrefl Htrans. induction l as [|i l IH]; intros Hstep s s' acc H.
  - injection H as <-. exists []. split; [reflexivity | apply Hrefl].
  - rewrite fold_opt_cons in H. destruct (F i s) as [s1|] eqn:E.
    + destruct (Hstep i s s1 (or_introl eq_refl) E) as (p1 & HG & HR).
      destruct (IH (fun j a a' Hj => Hstep j a a' (or_intror Hj)) s1 s' (p1 ++ acc) H) as (p2 & Hfold & HR2).
      exists (p2 ++ p1). split; [rewrite fold_opt_cons, HG, Hfold, app_assoc; reflexivity | exact (Htrans _ _ _ _ _ HR HR2)].
    + rewrite fold_opt_none in H. discriminate.
Qed.

Theorem dup_errs_complete seen l id :
  In (EAlreadyFreed id) (dup_errs seen l) <-> (exists l1 l2, l = l1 ++ id :: l2 /\ (In id seen \/ In id l1)).
Proof.
  revert seen. induction l as [|a r IH]; intros seen; cbn [dup_errs].
  - split; [intros [] | intros (l1 & l2 & H & _); destruct l1; discriminate].
  - rewrite in_app_iff, IH. split.
    + intros [H | (l1 & l2 & -> & H)].
      * destruct (memN a seen) eqn:E; [|destruct H]. destruct H as [[= ->] | []].
        exists [], r. split; [reflexivity | left; apply memN_in, E].
      * exists (a :: l1), l2. split; [reflexivity|]. cbn [In] in *. tauto.
    + intros (l1 & l2 & E & H). destruct l1 as [|b l1]; cbn [app In] in E, H; injection E as -> ->.
      * left. destruct H as [H | []]. apply memN_in in H. rewrite H. left; reflexivity.
      * right. exists l1, l2. split; [reflexivity|]. cbn [In]. tauto.
Qed.
Print Assumptions dup_errs_complete.

Lemma dup_errs_nil_iff seen l : dup_errs seen l = [] <-> NoDup l /\ (forall x, In x l -> ~ In x seen).
Proof.
  revert seen. induction l as [|a r IH]; intros seen; cbn [dup_errs].
  - split; [intros _; split; [constructor | intros x []] | reflexivity].
  - etransitivity; [exact (app_nil_iff _ _ _ _ (singleton_if_nil _ _) (IH _))|].
    rewrite memN_false, NoDup_cons_iff. cbn [In]. intuition (subst; eauto).
Qed.

Corollary dup_errs_nodup l : dup_errs [] l = [] <-> NoDup l.
Proof.
  rewrite dup_errs_nil_iff. split; [intros [H _]; exact H | intros H; split; [exact H | intros x _ []]].
Qed.
Print Assumptions dup_errs_nodup.

Lemma dup_errs_only seen l c : In c (dup_errs seen l) -> exists id, c = EAlreadyFreed id.
Proof.
  revert seen. induction l as [|a r IH]; intros seen; cbn [dup_errs]; [intros []|].
  rewrite in_app_iff. intros [H | H]; [|exact (IH _ H)].
  destruct (memN a seen); [|destruct H]. destruct H as [<- | []]. exists a. reflexivity.
Qed.

Definition walk_err (c : cerr) : Prop :=
  match c with EAlreadyFreed _ | EUnreachUnfreed _ => False | _ => True end.

Section ChkP.
  Variable rd : N -> N.
  Variable ps : N.
  Variable freed : list N.
  Variable hwm : N.
  Notation cst := (list N * list cerr)%type.
  Notation p_hid := (p_hid rd ps).
  Notation p_ov := (p_ov rd ps).
  Notation p_count := (p_count rd ps).
  Notation is_branch := (is_branch rd ps).
  Notation is_leaf := (is_leaf rd ps).
  Notation br_elem := (br_elem rd ps).
  Notation lf_elem := (lf_elem rd ps).
  Notation verify_reachable := (verify_reachable rd ps freed hwm).
  Notation walk_reach := (walk_reach rd ps freed hwm).
  Notation key_order := (key_order rd ps).
  Notation walkable := (walkable rd ps).
  Notation nested_roots := (nested_roots rd ps).
  Notation check_bucket := (check_bucket rd ps freed hwm).
  Notation check := (check rd ps freed hwm).

  (** the ids the page adds to the reachable set (newest first) *)
  Definition page_ids (pg : N) : list N := rev (map (N.add (p_hid pg)) (run 0 (p_ov pg + 1))).

  Lemma page_ids_run pg : page_ids pg = rev (run (p_hid pg) (p_ov pg + 1)).
  Proof. unfold page_ids, run. rewrite run_nat_add, N.add_0_r. reflexivity. Qed.

  Lemma page_ids_run_in pg id : In id (run (p_hid pg) (p_ov pg + 1)) <-> In id (page_ids pg).
  Proof. rewrite page_ids_run. apply in_rev. Qed.

  Lemma page_ids_in pg id : In id (page_ids pg) <-> p_hid pg <= id < p_hid pg + p_ov pg + 1.
  Proof. rewrite <- page_ids_run_in, run_in, N.add_assoc. reflexivity. Qed.

  Lemma page_ids_head pg : In (p_hid pg) (page_ids pg).
  Proof.
    apply page_ids_in. lia.
  Qed.

  Lemma page_ids_nodup pg : NoDup (page_ids pg).
  Proof. rewrite page_ids_run. apply NoDup_rev, run_nat_nodup. Qed.

  Lemma page_ids_forall pg (P : N -> Prop) :
    (forall i, i < p_ov pg + 1 -> P (p_hid pg + i)) <-> (forall id, In id (page_ids pg) -> P id).
  Proof.
    unfold page_ids. split.
    - intros H id Hin. apply in_rev, in_map_iff in Hin. destruct Hin as (i & <- & Hi).
      apply H, run0_in, Hi.
    - intros H i Hi. apply H. rewrite <- in_rev. apply in_map, run0_in, Hi.
  Qed.

  Definition page_ok (pg : N) (r : list N) : Prop :=
    p_hid pg <= hwm /\
    (forall i, i < p_ov pg + 1 -> ~ In (p_hid pg + i) r) /\
    (forall i, i < p_ov pg + 1 -> ~ In (p_hid pg + i) freed) /\
    (is_branch pg || is_leaf pg) = true.

  Definition page_static_ok (pg : N) : Prop :=
    p_hid pg <= hwm /\ (forall id, In id (page_ids pg) -> ~ In id freed) /\ (is_branch pg || is_leaf pg) = true.

  Lemma page_ok_iff pg r : page_ok pg r <-> page_static_ok pg /\ (forall id, In id (page_ids pg) -> ~ In id r).
  Proof.
    unfold page_ok, page_static_ok.
    rewrite (page_ids_forall pg (fun id => ~ In id r)), (page_ids_forall pg (fun id => ~ In id freed)). tauto.
  Qed.

  Lemma static_ok_not_freed pages id :
    Forall page_static_ok pages -> In id (flat_map page_ids pages) -> ~ In id freed.
  Proof.
    intros Hp Hin. apply in_flat_map in Hin. destruct Hin as (pg & Hpg & Hid).
    rewrite Forall_forall in Hp. exact (proj1 (proj2 (Hp pg Hpg)) id Hid).
  Qed.

  (** the loop body of verifyPageReachable, named so that the stages below do not carry its text *)
  Definition vr_step (hid : N) (a : cst) (i : N) : cst :=
    let id := hid + i in
    let a1 := if memN id (fst a) then (fst a, EMultiRef id :: snd a) else a in
    let a2 := (id :: fst a1, snd a1) in
    if (0 <? i) && memN id freed then (fst a2, EReachFreed id :: snd a2) else a2.

  Lemma verify_reachable_unfold pg s :
    verify_reachable pg s =
    let hid := p_hid pg in
    let s1 := if hwm <? hid then (fst s, EOutOfBounds hid :: snd s) else s in
    let s2 := fold_left (vr_step hid) (run 0 (p_ov pg + 1)) s1 in
    if memN hid freed then (fst s2, EReachFreed hid :: snd s2)
    else if negb (is_branch pg) && negb (is_leaf pg) then (fst s2, EInvalidType hid :: snd s2)
    else s2.
  Proof. reflexivity. Qed.

  (** [grows a a' ids Q]: [a'] is [a] with [ids] pushed on the reached ids and walk errors pushed on the report,
      none exactly when [Q] holds.  Every stage of verifyPageReachable has this shape, and stages compose. *)
  Definition grows (a a' : cst) (ids : list N) (Q : Prop) : Prop :=
    fst a' = ids ++ fst a /\ exists e, snd a' = e ++ snd a /\ Forall walk_err e /\ (e = [] <-> Q).

  Lemma grows_trans {a b c i1 i2 Q1 Q2} : grows a b i1 Q1 -> grows b c i2 Q2 -> grows a c (i2 ++ i1) (Q2 /\ Q1).
  Proof.
    intros (Hf1 & e1 & Hs1 & Hw1 & Hq1) (Hf2 & e2 & Hs2 & Hw2 & Hq2).
    split; [rewrite Hf2, Hf1, app_assoc; reflexivity|]. exists (e2 ++ e1).
    split; [rewrite Hs2, Hs1, app_assoc; reflexivity|]. split; [apply Forall_app; split; assumption|].
    exact (app_nil_iff _ _ _ _ Hq2 Hq1).
  Qed.

  Lemma grows_iff {a a' ids} {Q Q' : Prop} : grows a a' ids Q -> (Q <-> Q') -> grows a a' ids Q'.
  Proof. intros (Hf & e & Hs & Hw & Hq) HQ. split; [exact Hf|]. exists e. rewrite <- HQ. auto. Qed.

  Lemma grows_err a (b : bool) c : walk_err c -> grows a (if b then (fst a, c :: snd a) else a) [] (b = false).
  Proof.
    intros Hc. split; [destruct b; reflexivity|]. exists (if b then [c] else []).
    destruct b; (split; [reflexivity | split; [repeat constructor; exact Hc | split; congruence]]).
  Qed.

  Lemma vr_step_spec hid a i :
    grows a (vr_step hid a i) [hid + i] (memN (hid + i) (fst a) = false /\ (0 <? i) && memN (hid + i) freed = false).
  Proof.
    pose proof (grows_err a (memN (hid + i) (fst a)) (EMultiRef (hid + i)) I) as G1.
    set (a1 := if memN (hid + i) (fst a) then _ else a) in G1.
    assert (G2 : grows a1 (hid + i :: fst a1, snd a1) [hid + i] True).
    { split; [reflexivity|]. exists []. repeat split; constructor. }
    pose proof (grows_err (hid + i :: fst a1, snd a1) ((0 <? i) && memN (hid + i) freed) (EReachFreed (hid + i)) I) as G3.
    apply (grows_iff (grows_trans (grows_trans G1 G2) G3)).
    split; [intros (H2 & _ & H1); split; assumption | intros [H1 H2]; repeat split; assumption].
  Qed.

  Lemma vr_fold_spec hid l : NoDup l -> forall a,
    grows a (fold_left (vr_step hid) l a) (rev (map (N.add hid) l))
      (forall i, In i l -> memN (hid + i) (fst a) = false /\ (0 <? i) && memN (hid + i) freed = false).
  Proof.
    induction l as [|j l IH]; intros Hnd a.
    - split; [reflexivity|]. exists []. split; [reflexivity|]. split; [constructor|]. split; [intros _ i [] | reflexivity].
    - apply NoDup_cons_iff in Hnd. destruct Hnd as [Hj Hnd]. cbn [fold_left].
      pose proof (vr_step_spec hid a j) as G1.
      apply (grows_iff (grows_trans G1 (IH Hnd _))).
      rewrite (proj1 G1). change (memN ?x ([?y] ++ ?r)) with ((x =? y) || memN x r). split.
      + intros [H2 H1] i [<- | Hi]; [exact H1|]. destruct (H2 i Hi) as [Hm Hc].
        apply orb_false_iff in Hm. split; [exact (proj2 Hm) | exact Hc].
      + intros H. split; [|apply H; left; reflexivity]. intros i Hi. destruct (H i (or_intror Hi)) as [Hm Hc].
        split; [|exact Hc]. apply orb_false_iff. split; [|exact Hm].
        apply N.eqb_neq. intros E. apply N.add_cancel_l in E. subst. exact (Hj Hi).
  Qed.

  Lemma verify_reachable_spec pg s : grows s (verify_reachable pg s) (page_ids pg) (page_ok pg (fst s)).
  Proof.
    rewrite verify_reachable_unfold. cbv zeta. set (hid := p_hid pg).
    pose proof (grows_err s (hwm <? hid) (EOutOfBounds hid) I) as G1.
    set (s1 := if hwm <? hid then _ else s) in *.
    pose proof (vr_fold_spec hid _ (run_nat_nodup 0 _) s1 : grows s1 (fold_left _ (run 0 (p_ov pg + 1)) s1) _ _) as G2.
    set (s2 := fold_left _ _ s1) in *.
    assert (G3 : grows s2 (if memN hid freed then (fst s2, EReachFreed hid :: snd s2)
                           else if negb (is_branch pg) && negb (is_leaf pg) then (fst s2, EInvalidType hid :: snd s2) else s2)
                   [] (memN hid freed = false /\ negb (is_branch pg) && negb (is_leaf pg) = false)).
    { destruct (memN hid freed).
      - apply (grows_iff (grows_err s2 true (EReachFreed hid) I)). intuition congruence.
      - apply (grows_iff (grows_err s2 _ (EInvalidType hid) I)). tauto. }
    rewrite <- (app_nil_r (page_ids pg)). apply (grows_iff (grows_trans (grows_trans G1 G2) G3)).
    rewrite (proj1 G1 : fst s1 = fst s). unfold page_ok. fold hid. split.
    - intros ((Hfr & Ht) & HF & H0). split; [apply N.ltb_ge, H0|].
      split; [intros i Hi; apply memN_false, (HF i), run0_in, Hi|]. split.
      + intros i Hi. apply memN_false. destruct (N.eq_0_gt_0_cases i) as [-> | Hpos]; [rewrite N.add_0_r; exact Hfr|].
        destruct (HF i (proj2 (run0_in _ _) Hi)) as [_ H]. apply N.ltb_lt in Hpos. rewrite Hpos in H. exact H.
      + destruct (is_branch pg), (is_leaf pg); try reflexivity. discriminate Ht.
    - intros (Hb & Hr & Hfz & Ht). split; [split | split; [|apply N.ltb_ge, Hb]].
      + apply memN_false. rewrite <- (N.add_0_r hid). apply Hfz. rewrite N.add_1_r. apply N.lt_0_succ.
      + destruct (is_branch pg), (is_leaf pg); try reflexivity. discriminate Ht.
      + intros i Hi. apply run0_in in Hi. split; [apply memN_false, Hr, Hi|].
        apply andb_false_iff. right. apply memN_false, Hfz, Hi.
  Qed.

  Theorem verify_reachable_silent_iff pg s :
    snd (verify_reachable pg s) = snd s <-> page_ok pg (fst s).
  Proof.
    destruct (verify_reachable_spec pg s) as [_ (e & Hs & _ & Hiff)]. rewrite Hs, <- Hiff.
    split; [apply (app_inv_tail (snd s) e []) | intros ->; reflexivity].
  Qed.

  Theorem verify_reachable_reach pg s id :
    In id (fst (verify_reachable pg s)) <-> p_hid pg <= id < p_hid pg + p_ov pg + 1 \/ In id (fst s).
  Proof. rewrite (proj1 (verify_reachable_spec pg s)), in_app_iff, page_ids_in. reflexivity. Qed.

  Lemma blt_lt a b : blt a b = true <-> bcmp a b = Lt.
  Proof. exact (SpecProofs.blt_lt a b). Qed.

  Lemma verify_key_nil_iff rep idx key prev maxo :
    verify_key rep idx key prev maxo = [] <->
    (idx = 0 -> opt_le prev key = true) /\ (0 < idx -> blt (okey prev) key = true) /\ opt_lt key maxo = true.
  Proof using.
    unfold verify_key. apply app_nil_iff; [|apply app_nil_iff].
    - rewrite singleton_if_nil.
      replace (opt_le prev key) with (negb match prev with Some p => blt key p | None => false end) by (destruct prev; reflexivity).
      rewrite negb_true_iff. destruct (N.eqb_spec idx 0) as [E | E]; (split; [|auto]).
      + intros H _. exact H.
      + intros _ H. destruct (E H).
    - unfold blt. destruct (N.ltb_spec 0 idx) as [L | L].
      + destruct (bcmp (okey prev) key); (split; [intros H | intros H; specialize (H L)]); try reflexivity; discriminate H.
      + split; [intros _ H; destruct (N.lt_irrefl _ (N.lt_le_trans _ _ _ H L)) | reflexivity].
    - destruct maxo as [m|]; [rewrite singleton_if_nil; apply negb_false_iff | split; reflexivity].
  Qed.

  Lemma verify_key_walk_err rep idx key prev maxo : Forall walk_err (verify_key rep idx key prev maxo).
  Proof.
    unfold verify_key. repeat (apply Forall_app; split).
    - destruct ((idx =? 0) && match prev with Some p => blt key p | None => false end); repeat constructor.
    - destruct (0 <? idx); [|constructor]. destruct (bcmp (okey prev) key); repeat constructor.
    - destruct maxo as [m|]; [|constructor]. destruct (negb (blt key m)); repeat constructor.
  Qed.

  Definition lkey (pg i : N) : bytes := let '(_, key, _, _) := lf_elem pg i in key.
  Definition leaf_keys (pg : N) : list bytes := map (lkey pg) (run 0 (p_count pg)).

  Definition lf_step (pg : N) (maxo : option bytes) (a : list cerr * option bytes) (i : N) : list cerr * option bytes :=
    (fst a ++ verify_key pg i (lkey pg i) (snd a) maxo, Some (lkey pg i)).

  Definition br_step (f : nat) (pg : N) (maxo : option bytes) (i : N) (a : list cerr * option bytes * option bytes) :
    option (list cerr * option bytes * option bytes) :=
    let '(errs, running, _) := a in
    let '(key, child) := br_elem pg i in
    match key_order f child (Some key) (if i <? p_count pg - 1 then Some (fst (br_elem pg (i + 1))) else maxo) with
    | None => None
    | Some (e2, sub) => Some (errs ++ verify_key child i key running maxo ++ e2, sub, sub)
    end.

  Lemma key_order_S f pg mino maxo :
    key_order (S f) pg mino maxo =
    if is_branch pg then
      match fold_opt (br_step f pg maxo) (run 0 (p_count pg)) (Some ([], mino, None)) with
      | None => None
      | Some (errs, _, sub) => Some (errs, sub)
      end
    else if is_leaf pg then
      Some (fst (fold_left (lf_step pg maxo) (run 0 (p_count pg)) ([], mino)),
            if 0 <? p_count pg then Some (lkey pg (p_count pg - 1)) else None)
    else Some ([EUnexpectedType pg], None).
  Proof.
    cbn [Check.key_order]. destruct (is_branch pg); [reflexivity|]. destruct (is_leaf pg); [|reflexivity]. cbv zeta.
    (* the loop body is [lf_step] once [lf_elem] is unfolded *)
    change (fold_left _ ?l ?a) with (fold_left (lf_step pg maxo) l a).
    destruct (fold_left _ _ _). reflexivity.
  Qed.

  Lemma key_order_walk_err fuel : forall pg mino maxo errs sub,
    key_order fuel pg mino maxo = Some (errs, sub) -> Forall walk_err errs.
  Proof.
    induction fuel as [|f IH]; intros pg mino maxo errs sub H; [discriminate|].
    rewrite key_order_S in H. destruct (is_branch pg); [|destruct (is_leaf pg)].
    - destruct (fold_opt _ _ _) as [[[errs' run'] sub']|] eqn:EF; [|discriminate]. injection H as <- <-.
      apply (fold_opt_inv (fun a => Forall walk_err (fst (fst a))) _ _) with (3 := EF); [|constructor].
      intros i [[ea ra] sa] a' _ Ha Hi. unfold br_step in Hi. destruct (br_elem pg i) as [key child].
      destruct (key_order f child _ _) as [[e2 sub2]|] eqn:EK; [|discriminate]. injection Hi as <-.
      apply Forall_app; split; [exact Ha|]. apply Forall_app; split; [apply verify_key_walk_err | exact (IH _ _ _ _ _ EK)].
    - injection H as <- _. apply (fold_left_inv (fun a => Forall walk_err (fst a))); [|constructor].
      intros a i _ Ha. apply Forall_app; split; [exact Ha | apply verify_key_walk_err].
    - injection H as <- _. repeat constructor.
  Qed.

  Lemma leaf_not_branch pg : is_leaf pg = true -> is_branch pg = false.
  Proof.
    unfold Check.is_leaf, Check.is_branch, leaf_page_flag, branch_page_flag. intros H. apply N.eqb_eq in H. rewrite H. reflexivity.
  Qed.

  Lemma key_order_leaf f pg mino maxo :
    is_leaf pg = true ->
    key_order (S f) pg mino maxo =
    Some (fst (fold_left (lf_step pg maxo) (run 0 (p_count pg)) ([], mino)),
          if 0 <? p_count pg then Some (lkey pg (p_count pg - 1)) else None).
  Proof. intros Hl. rewrite key_order_S, (leaf_not_branch _ Hl), Hl. reflexivity. Qed.

  Lemma lf_fold_pos pg maxo n : forall p prev e0, 0 < p ->
    exists e, fst (fold_left (lf_step pg maxo) (run_nat p n) (e0, Some prev)) = e0 ++ e /\
      (e = [] <-> strictly_inc (prev :: map (lkey pg) (run_nat p n)) = true /\
                  Forall (fun k => opt_lt k maxo = true) (map (lkey pg) (run_nat p n))).
  Proof.
    induction n as [|n IH]; intros p prev e0 Hp.
    - exists []. split; [symmetry; apply app_nil_r|]. split; [intros _; split; [reflexivity | constructor] | reflexivity].
    - cbn [run_nat fold_left map]. unfold lf_step at 2. cbn [fst snd].
      destruct (IH (p + 1) (lkey pg p) (e0 ++ verify_key pg p (lkey pg p) (Some prev) maxo)) as (e' & Hf & Hiff);
        [apply N.add_pos_r; reflexivity|].
      exists (verify_key pg p (lkey pg p) (Some prev) maxo ++ e'). split; [rewrite Hf, app_assoc; reflexivity|].
      change (strictly_inc (prev :: ?k :: ?r)) with (blt prev k && strictly_inc (k :: r)).
      etransitivity; [exact (app_nil_iff _ _ _ _ (verify_key_nil_iff _ _ _ _ _) Hiff)|].
      rewrite andb_true_iff, Forall_cons_iff. cbn [okey].
      split; [intros ((_ & H2 & H3) & H4 & H5); auto | intros ((H1 & H2) & H3 & H4)].
      split; [split; [intros E; rewrite E in Hp; destruct (N.lt_irrefl _ Hp) | split; [intros _; exact H1 | exact H3]] | split; assumption].
  Qed.

  (** on a leaf page recursivelyCheckPageKeyOrder is silent iff the keys are strictly increasing, the first is
      not below the running minimum and all are below the open maximum *)
  Theorem key_order_leaf_clean f pg mino maxo errs last :
    is_leaf pg = true -> key_order (S f) pg mino maxo = Some (errs, last) ->
    (errs = [] <->
     strictly_inc (leaf_keys pg) = true /\
     match leaf_keys pg with k0 :: _ => opt_le mino k0 = true | [] => True end /\
     Forall (fun k => opt_lt k maxo = true) (leaf_keys pg)).
  Proof.
    intros Hl H. rewrite (key_order_leaf _ _ _ _ Hl) in H. injection H as <- _.
    unfold leaf_keys, run. destruct (N.to_nat (p_count pg)) as [|n].
    - split; [intros _; split; [reflexivity | split; [exact I | constructor]] | reflexivity].
    - cbn [run_nat fold_left map]. unfold lf_step at 2. cbn [fst snd app].
      destruct (lf_fold_pos pg maxo n (0 + 1) (lkey pg 0) (verify_key pg 0 (lkey pg 0) mino maxo)) as (e' & -> & Hiff); [reflexivity|].
      etransitivity; [exact (app_nil_iff _ _ _ _ (verify_key_nil_iff _ _ _ _ _) Hiff)|]. rewrite Forall_cons_iff.
      split; [intros ((H1 & _ & H3) & H4 & H5); auto | intros (H1 & H2 & H3 & H4)].
      split; [split; [intros _; exact H2 | split; [intros L; destruct (N.lt_irrefl _ L) | exact H3]] | split; assumption].
  Qed.

  Lemma key_order_leaf_last f pg mino maxo errs last :
    is_leaf pg = true -> key_order (S f) pg mino maxo = Some (errs, last) ->
    last = if 0 <? p_count pg then Some (lkey pg (p_count pg - 1)) else None.
  Proof. intros Hl H. rewrite (key_order_leaf _ _ _ _ Hl) in H. injection H as _ <-. reflexivity. Qed.

  Fixpoint walk_pages (fuel : nat) (pg : N) : option (list N) :=
    match fuel with O => None | S f =>
      if is_branch pg then
        fold_left (fun (a : option (list N)) i => match a with None => None | Some l =>
                     match walk_pages f (snd (br_elem pg i)) with None => None | Some l' => Some (l' ++ l) end end)
                  (run 0 (p_count pg)) (Some [pg])
      else Some [pg]
    end.

  Fixpoint bucket_pages (fuel : nat) (root : N) : option (list N) :=
    match fuel with O => None | S f =>
      if root =? 0 then Some [] else
      match walk_pages f root with None => None | Some l =>
      match key_order f root None None with None => None | Some _ =>
      match walkable f root with None => None | Some false => Some l | Some true =>
      match nested_roots f root with None => None | Some roots =>
        fold_left (fun (a : option (list N)) r => match a with None => None | Some l0 =>
                     match bucket_pages f r with None => None | Some l' => Some (l' ++ l0) end end) roots (Some l)
      end end end end
    end.

  (** [good3 pages s s']: [s'] extends [s] by the id runs of the visited [pages] (newest first) and by walk errors;
      when no error was added, distinctness is preserved and every visited page is in bounds, of a valid type,
      and none of the ids of its run is free *)
  Definition good3 (pages : list N) (s s' : cst) : Prop :=
    fst s' = flat_map page_ids pages ++ fst s /\
    exists e, snd s' = e ++ snd s /\ Forall walk_err e /\
      (e = [] -> (NoDup (fst s) -> NoDup (fst s')) /\ Forall page_static_ok pages).

  Lemma good3_errs s e : Forall walk_err e -> good3 [] s (fst s, e ++ snd s).
  Proof.
    intros He. split; [reflexivity|]. exists e. split; [reflexivity|]. split; [exact He|].
    intros _. split; [intros H; exact H | constructor].
  Qed.

  Lemma good3_refl s : good3 [] s s.
  Proof. destruct s as [r e]. exact (good3_errs (r, e) [] (Forall_nil _)). Qed.

  Lemma good3_trans p1 p2 a b c : good3 p1 a b -> good3 p2 b c -> good3 (p2 ++ p1) a c.
  Proof.
    intros (Hf1 & e1 & Hs1 & Hw1 & Hc1) (Hf2 & e2 & Hs2 & Hw2 & Hc2).
    split; [rewrite Hf2, Hf1, flat_map_app, app_assoc; reflexivity|].
    exists (e2 ++ e1). split; [rewrite Hs2, Hs1, app_assoc; reflexivity|]. split; [apply Forall_app; split; assumption|].
    intros E. apply app_eq_nil in E. destruct E as [E2 E1].
    destruct (Hc1 E1) as [Hn1 Hp1]. destruct (Hc2 E2) as [Hn2 Hp2].
    split; [intros H; exact (Hn2 (Hn1 H)) | apply Forall_app; split; assumption].
  Qed.

  Lemma verify_reachable_good3 pg s : good3 [pg] s (verify_reachable pg s).
  Proof.
    destruct (verify_reachable_spec pg s) as [Hf (e & Hs & Hw & Hiff)].
    split; [cbn [flat_map]; rewrite app_nil_r; exact Hf|]. exists e. split; [exact Hs|]. split; [exact Hw|].
    intros E. apply Hiff, page_ok_iff in E. destruct E as [Hst Hr]. split; [|constructor; [exact Hst | constructor]].
    intros Hnd. rewrite Hf. apply NoDup_app_iff. split; [apply page_ids_nodup|]. split; [exact Hnd | exact Hr].
  Qed.

  Lemma walk_reach_S f pg s :
    walk_reach (S f) pg s =
    if is_branch pg then fold_opt (fun i => walk_reach f (snd (br_elem pg i))) (run 0 (p_count pg)) (Some (verify_reachable pg s))
    else Some (verify_reachable pg s).
  Proof. reflexivity. Qed.

  Lemma walk_reach_good3 fuel : forall pg s s', walk_reach fuel pg s = Some s' ->
    exists pages, walk_pages fuel pg = Some pages /\ good3 pages s s'.
  Proof.
    induction fuel as [|f IH]; intros pg s s' H; [discriminate|].
    rewrite walk_reach_S in H. cbn [walk_pages].
    pose proof (verify_reachable_good3 pg s) as G0.
    destruct (is_branch pg).
    - apply (fold_opt_lock good3 _ (fun i => walk_pages f (snd (br_elem pg i))) _ good3_refl good3_trans) with (acc := [pg]) in H;
        [|intros i a a' _ Hi; exact (IH _ _ _ Hi)].
      destruct H as (p & Hfold & HR). exists (p ++ [pg]). split; [exact Hfold | exact (good3_trans _ _ _ _ _ G0 HR)].
    - injection H as <-. exists [pg]. split; [reflexivity | exact G0].
  Qed.

  Lemma check_bucket_S f root s :
    check_bucket (S f) root s =
    if root =? 0 then Some s else
    match walk_reach f root s with None => None | Some s1 =>
    match key_order f root None None with None => None | Some (kerrs, _) =>
    match walkable f root with None => None | Some false => Some (fst s1, rev kerrs ++ snd s1) | Some true =>
    match nested_roots f root with None => None | Some roots =>
      fold_opt (check_bucket f) roots (Some (fst s1, rev kerrs ++ snd s1))
    end end end end.
  Proof. reflexivity. Qed.

  Lemma check_bucket_good3 fuel : forall root s s', check_bucket fuel root s = Some s' ->
    exists pages, bucket_pages fuel root = Some pages /\ good3 pages s s'.
  Proof.
    induction fuel as [|f IH]; intros root s s' H; [discriminate|].
    rewrite check_bucket_S in H. cbn [bucket_pages].
    destruct (root =? 0); [injection H as <-; exists []; split; [reflexivity | apply good3_refl]|].
    destruct (walk_reach f root s) as [s1|] eqn:EW; [|discriminate].
    destruct (walk_reach_good3 _ _ _ _ EW) as (p1 & -> & G1).
    destruct (key_order f root None None) as [[kerrs sub]|] eqn:EK; [|discriminate].
    pose proof (good3_trans _ _ _ _ _ G1 (good3_errs s1 _ (Forall_rev (key_order_walk_err _ _ _ _ _ _ EK)))) as G12.
    destruct (walkable f root) as [[|]|]; [|injection H as <-; exists p1; split; [reflexivity | exact G12]|discriminate].
    destruct (nested_roots f root) as [roots|]; [|discriminate].
    apply (fold_opt_lock good3 _ (bucket_pages f) _ good3_refl good3_trans) with (acc := p1) in H;
      [|intros i a a' _ Hi; exact (IH _ _ _ Hi)].
    destruct H as (p & Hfold & HR). exists (p ++ p1). split; [exact Hfold | exact (good3_trans _ _ _ _ _ G12 HR)].
  Qed.

  Definition good (s s' : cst) : Prop :=
    exists pages e, fst s' = flat_map page_ids pages ++ fst s /\ snd s' = e ++ snd s /\ Forall walk_err e /\
      (e = [] -> (NoDup (fst s) -> NoDup (fst s')) /\ Forall page_static_ok pages).

  Lemma good3_good p s s' : good3 p s s' -> good s s'.
  Proof. intros (Hf & e & H). exists p, e. split; [exact Hf | exact H]. Qed.

  Lemma walk_reach_good fuel pg s s' : walk_reach fuel pg s = Some s' -> good s s'.
  Proof. intros H. destruct (walk_reach_good3 _ _ _ _ H) as (p & _ & G). exact (good3_good _ _ _ G). Qed.

  Lemma check_bucket_good fuel root s s' : check_bucket fuel root s = Some s' -> good s s'.
  Proof. intros H. destruct (check_bucket_good3 _ _ _ _ H) as (p & _ & G). exact (good3_good _ _ _ G). Qed.

  Definition extends (s s' : cst) : Prop := exists r e, fst s' = r ++ fst s /\ snd s' = e ++ snd s.

  Lemma good_extends s s' : good s s' -> extends s s'.
  Proof. intros (p & e & Hf & Hs & _). exists (flat_map page_ids p), e. split; assumption. Qed.

  Theorem verify_reachable_mono pg s : extends s (verify_reachable pg s).
  Proof. exact (good_extends _ _ (good3_good _ _ _ (verify_reachable_good3 pg s))). Qed.

  Theorem walk_reach_mono fuel pg s s' : walk_reach fuel pg s = Some s' -> extends s s'.
  Proof. intros H. exact (good_extends _ _ (walk_reach_good _ _ _ _ H)). Qed.

  Theorem check_bucket_mono fuel root s s' : check_bucket fuel root s = Some s' -> extends s s'.
  Proof. intros H. exact (good_extends _ _ (check_bucket_good _ _ _ _ H)). Qed.

  Lemma good_clean s s' :
    good s s' -> snd s' = snd s ->
    (NoDup (fst s) -> NoDup (fst s')) /\
    (forall id, In id (fst s') -> ~ In id (fst s) -> ~ In id freed) /\
    exists pages, fst s' = flat_map page_ids pages ++ fst s /\ Forall page_static_ok pages.
  Proof.
    intros (pages & e & Hf & Hs & _ & Hc) Hsnd. rewrite Hs in Hsnd.
    destruct (Hc (app_inv_tail (snd s) e [] Hsnd)) as [Hn Hp].
    split; [exact Hn|]. split; [|exists pages; split; assumption].
    intros id Hin Hnin. rewrite Hf, in_app_iff in Hin. destruct Hin as [Hin | Hin]; [|contradiction].
    exact (static_ok_not_freed _ _ Hp Hin).
  Qed.

  Theorem check_bucket_clean fuel root s s' :
    check_bucket fuel root s = Some s' -> snd s' = snd s ->
    (NoDup (fst s) -> NoDup (fst s')) /\
    (forall id, In id (fst s') -> ~ In id (fst s) -> ~ In id freed) /\
    exists pages, fst s' = flat_map page_ids pages ++ fst s /\ Forall page_static_ok pages.
  Proof. intros H. exact (good_clean _ _ (check_bucket_good _ _ _ _ H)). Qed.

  Theorem walk_reach_clean fuel pg s s' :
    walk_reach fuel pg s = Some s' -> snd s' = snd s ->
    (NoDup (fst s) -> NoDup (fst s')) /\
    (forall id, In id (fst s') -> ~ In id (fst s) -> ~ In id freed) /\
    exists pages, fst s' = flat_map page_ids pages ++ fst s /\ Forall page_static_ok pages.
  Proof. intros H. exact (good_clean _ _ (walk_reach_good _ _ _ _ H)). Qed.

  (** The reachable set is always (errors or not) the id runs of the visited pages on top of the start state. *)
  Theorem check_bucket_reach fuel root s s' :
    check_bucket fuel root s = Some s' ->
    exists pages, bucket_pages fuel root = Some pages /\ fst s' = flat_map page_ids pages ++ fst s.
  Proof. intros H. destruct (check_bucket_good3 _ _ _ _ H) as (p & HB & Hf & _). exists p. split; assumption. Qed.

  Theorem walk_reach_reach fuel pg s s' :
    walk_reach fuel pg s = Some s' ->
    exists pages, walk_pages fuel pg = Some pages /\ fst s' = flat_map page_ids pages ++ fst s.
  Proof. intros H. destruct (walk_reach_good3 _ _ _ _ H) as (p & HB & Hf & _). exists p. split; assumption. Qed.

  Lemma flat_page_ids_nodup pages : NoDup (flat_map page_ids pages) -> NoDup pages.
  Proof.
    induction pages as [|pg l IH]; intros H; [constructor|]. cbn [flat_map] in H.
    apply NoDup_app_iff in H. destruct H as (_ & Hl & Hd). constructor; [|exact (IH Hl)].
    intros Hin. apply (Hd _ (page_ids_head pg)), in_flat_map. exists pg. split; [exact Hin | apply page_ids_head].
  Qed.

  (** the same with the visits named: a silent walk visited every page once, every visited page is a branch or a leaf
      page whose stored id is not above the mark, and no id of any visited run is free or was reached before *)
  Theorem check_bucket_clean_visits fuel root s s' :
    check_bucket fuel root s = Some s' -> snd s' = snd s -> NoDup (fst s) ->
    exists pages, bucket_pages fuel root = Some pages /\ fst s' = flat_map page_ids pages ++ fst s /\
      NoDup (fst s') /\ NoDup pages /\ Forall page_static_ok pages.
  Proof.
    intros H Hsnd Hnd. destruct (check_bucket_good3 _ _ _ _ H) as (p & HB & Hf & e & Hs & _ & Hc).
    rewrite Hs in Hsnd. destruct (Hc (app_inv_tail (snd s) e [] Hsnd)) as [Hn Hp]. specialize (Hn Hnd).
    exists p. split; [exact HB|]. split; [exact Hf|]. split; [exact Hn|]. split; [|exact Hp].
    apply flat_page_ids_nodup. rewrite Hf in Hn. exact (proj1 (proj1 (NoDup_app_iff _ _) Hn)).
  Qed.

  Definition sweep (reach : list N) : list cerr :=
    flat_map (fun i => if negb (memN i reach) && negb (memN i freed) then [EUnreachUnfreed i] else []) (run 0 hwm).

  (** the start state of the walk: meta pages and freelist run reachable, seed test and duplicate test already reported *)
  Definition seed_errs (flrun : list N) : list cerr :=
    flat_map (fun id => if memN id (rev flrun ++ [1; 0]) && memN id freed then [EReachFreed id] else []) (run 0 hwm).

  Definition seed (flrun : list N) : cst :=
    (rev flrun ++ [1; 0], rev (seed_errs flrun) ++ rev (dup_errs [] freed)).

  Lemma check_unfold fuel flrun root :
    check fuel flrun root =
    match check_bucket fuel root (seed flrun) with None => None | Some (reach, errs) => Some (rev errs ++ sweep reach) end.
  Proof. reflexivity. Qed.

  Lemma seed_errs_in flrun c :
    In c (seed_errs flrun) <-> exists id, c = EReachFreed id /\ id < hwm /\ In id (flrun ++ [0; 1]) /\ In id freed.
  Proof. apply run_errs_in. intros id. rewrite andb_true_iff, !memN_in, seed_in. reflexivity. Qed.

  Lemma seed_errs_nil_iff flrun :
    seed_errs flrun = [] <-> forall id, id < hwm -> In id (flrun ++ [0; 1]) -> ~ In id freed.
  Proof.
    unfold seed_errs. rewrite flat_map_if_nil. split.
    - intros H id Hi H1. apply memN_false. apply run0_in in Hi. apply seed_in, memN_in in H1.
      specialize (H id Hi). rewrite H1 in H. exact H.
    - intros H id Hi. destruct (memN id (rev flrun ++ [1; 0])) eqn:E; [|reflexivity].
      apply memN_false, H; [apply run0_in, Hi | apply seed_in, memN_in, E].
  Qed.

  Lemma sweep_in reach c :
    In c (sweep reach) <-> exists i, c = EUnreachUnfreed i /\ i < hwm /\ ~ In i reach /\ ~ In i freed.
  Proof. apply run_errs_in. intros i. rewrite andb_true_iff, !negb_true_iff, !memN_false. reflexivity. Qed.

  Lemma sweep_nil_iff reach : sweep reach = [] <-> forall i, i < hwm -> In i reach \/ In i freed.
  Proof.
    unfold sweep. rewrite flat_map_if_nil. split; intros H i Hi.
    - apply run0_in in Hi. apply H, andb_false_iff in Hi.
      destruct Hi as [Hi | Hi]; apply negb_false_iff, memN_in in Hi; [left | right]; exact Hi.
    - apply andb_false_iff. apply run0_in, H in Hi.
      destruct Hi as [Hi | Hi]; apply memN_in in Hi; rewrite Hi; [left | right]; reflexivity.
  Qed.

  (** the report, in the order the code sends it: duplicates of the free list, free seed ids, the walk, the sweep *)
  Theorem check_errs_order fuel flrun root errs :
    check fuel flrun root = Some errs ->
    exists reach e' pages,
      check_bucket fuel root (seed flrun) = Some (reach, e' ++ snd (seed flrun)) /\
      reach = flat_map page_ids pages ++ rev flrun ++ [1; 0] /\ Forall walk_err e' /\
      errs = dup_errs [] freed ++ seed_errs flrun ++ rev e' ++ sweep reach.
  Proof.
    rewrite check_unfold. destruct (check_bucket fuel root (seed flrun)) as [[reach e]|] eqn:EC; [|discriminate].
    intros H. injection H as <-. destruct (check_bucket_good3 _ _ _ _ EC) as (pages & _ & Hr & e' & He & Hw & _).
    cbn [fst snd] in Hr, He. exists reach, e', pages. split; [rewrite He; reflexivity|]. split; [exact Hr|]. split; [exact Hw|].
    rewrite He. cbn [seed snd]. rewrite !rev_app_distr, !rev_involutive, <- !app_assoc. reflexivity.
  Qed.

  (** (D14) every seed id below the mark that is listed as free is reported *)
  Theorem check_seed_free_reported fuel flrun root errs :
    check fuel flrun root = Some errs ->
    forall id, id < hwm -> In id (flrun ++ [0; 1]) -> In id freed -> In (EReachFreed id) errs.
  Proof.
    intros H id Hi H1 H2. destruct (check_errs_order _ _ _ _ H) as (reach & e' & pages & _ & _ & _ & ->).
    apply in_app_iff. right. apply in_app_iff. left. apply seed_errs_in. exists id. auto.
  Qed.

  Theorem check_sweep_complete fuel flrun root errs :
    check fuel flrun root = Some errs ->
    exists reach e, check_bucket fuel root (seed flrun) = Some (reach, e) /\
      forall i, In (EUnreachUnfreed i) errs <-> i < hwm /\ ~ In i reach /\ ~ In i freed.
  Proof.
    intros H. destruct (check_errs_order _ _ _ _ H) as (reach & e' & pages & EC & _ & Hw & ->).
    exists reach, (e' ++ snd (seed flrun)). split; [exact EC|].
    intros i. rewrite !in_app_iff, sweep_in. split.
    - intros [H1 | [H1 | [H1 | (j & E & H1)]]]; [exfalso | exfalso | exfalso | injection E as ->; exact H1].
      + apply dup_errs_only in H1. destruct H1 as [id H1]. discriminate.
      + apply seed_errs_in in H1. destruct H1 as (id & H1 & _). discriminate.
      + rewrite <- in_rev in H1. rewrite Forall_forall in Hw. exact (Hw _ H1).
    - intros H1. right. right. right. exists i. split; [reflexivity | exact H1].
  Qed.

  Lemma check_clean_stages fuel flrun root :
    check fuel flrun root = Some [] ->
    exists reach, check_bucket fuel root (seed flrun) = Some (reach, []) /\
      dup_errs [] freed = [] /\ seed_errs flrun = [] /\ sweep reach = [].
  Proof.
    intros H. destruct (check_errs_order _ _ _ _ H) as (reach & e' & pages & EC & _ & _ & E).
    symmetry in E. apply app_eq_nil in E. destruct E as [Hd E]. apply app_eq_nil in E. destruct E as [Hs E].
    apply app_eq_nil in E. destruct E as [He Hsw]. apply rev_eq_nil in He. subst e'.
    exists reach. cbn [seed snd app] in EC. rewrite Hd, Hs in EC. auto.
  Qed.

  Corollary check_clean_covers fuel flrun root :
    check fuel flrun root = Some [] ->
    exists reach, check_bucket fuel root (seed flrun) = Some (reach, []) /\ forall i, i < hwm -> In i reach \/ In i freed.
  Proof.
    intros H. destruct (check_clean_stages _ _ _ H) as (reach & EC & _ & _ & Hsw).
    exists reach. split; [exact EC | apply sweep_nil_iff, Hsw].
  Qed.

  Lemma seed_nodup flrun : NoDup (flrun ++ [0; 1]) -> NoDup (rev flrun ++ [1; 0]).
  Proof.
    intros H. apply NoDup_rev in H. rewrite rev_app_distr in H.
    exact (Permutation.Permutation_NoDup (Permutation.Permutation_app_comm _ _) H).
  Qed.

  (** The clean verdict, exactly as the code supports it: the ids the WALK added are not free, and no seed id BELOW
      THE MARK is free (the seed test only runs over the ids below the mark). *)
  Theorem check_clean_partition_partial fuel flrun root :
    check fuel flrun root = Some [] -> NoDup (flrun ++ [0; 1]) ->
    NoDup freed /\
    exists pages, let reach := flat_map page_ids pages ++ rev flrun ++ [1; 0] in
      check_bucket fuel root (seed flrun) = Some (reach, []) /\
      NoDup reach /\ Forall page_static_ok pages /\
      (forall id, In id (flat_map page_ids pages) -> ~ In id freed) /\
      (forall id, id < hwm -> In id (flrun ++ [0; 1]) -> ~ In id freed) /\
      (forall i, i < hwm -> In i reach \/ In i freed).
  Proof.
    intros H Hseed. destruct (check_clean_stages _ _ _ H) as (reach & EC & Hd & Hs & Hsw).
    split; [apply dup_errs_nodup, Hd|].
    destruct (check_bucket_clean _ _ _ _ EC) as (Hn & _ & pages & Hr & Hp); [cbn [seed snd]; rewrite Hd, Hs; reflexivity|].
    cbn [seed fst] in Hn, Hr. exists pages. cbv zeta. rewrite <- Hr.
    split; [exact EC|]. split; [exact (Hn (seed_nodup _ Hseed))|]. split; [exact Hp|].
    split; [intros id; exact (static_ok_not_freed _ _ Hp)|]. split; [apply seed_errs_nil_iff, Hs | apply sweep_nil_iff, Hsw].
  Qed.

  (** The C07 partition read off a clean verdict.  The weakest side condition on the seed: whatever part of it lies
      at or above the mark is not free (Tx.check cannot see those ids: [clean_with_freelist_run_past_mark]). *)
  Theorem check_clean_partition_gen fuel flrun root :
    check fuel flrun root = Some [] -> NoDup (flrun ++ [0; 1]) ->
    (forall id, In id (flrun ++ [0; 1]) -> hwm <= id -> ~ In id freed) ->
    NoDup freed /\
    exists reach, NoDup reach /\ (forall id, In id reach -> ~ In id freed) /\ (forall i, i < hwm -> In i reach \/ In i freed).
  Proof.
    intros H Hseed Hsf.
    destruct (check_clean_partition_partial _ _ _ H Hseed) as [Hnd (pages & _ & Hn & _ & Hw & Hlow & Hcov)].
    split; [exact Hnd|]. exists (flat_map page_ids pages ++ rev flrun ++ [1; 0]). split; [exact Hn|]. split; [|exact Hcov].
    intros id Hin. apply in_app_iff in Hin. destruct Hin as [Hin | Hin]; [exact (Hw id Hin)|].
    apply seed_in in Hin. destruct (N.lt_ge_cases id hwm) as [Hlt | Hge]; [exact (Hlow id Hlt Hin) | exact (Hsf id Hin Hge)].
  Qed.

  (** ... in particular when the whole seed lies below the mark (true of every file bbolt writes) *)
  Theorem check_clean_partition fuel flrun root :
    check fuel flrun root = Some [] -> NoDup (flrun ++ [0; 1]) ->
    (forall id, In id (flrun ++ [0; 1]) -> id < hwm) ->
    NoDup freed /\
    exists reach, NoDup reach /\ (forall id, In id reach -> ~ In id freed) /\ (forall i, i < hwm -> In i reach \/ In i freed).
  Proof.
    intros H Hseed Hlt. apply (check_clean_partition_gen _ _ _ H Hseed).
    intros id Hin Hge. destruct (proj1 (N.le_ngt _ _) Hge (Hlt id Hin)).
  Qed.

  Theorem check_clean_visits fuel flrun root :
    check fuel flrun root = Some [] -> NoDup (flrun ++ [0; 1]) ->
    NoDup freed /\
    exists pages, bucket_pages fuel root = Some pages /\
      let reach := flat_map page_ids pages ++ rev flrun ++ [1; 0] in
      NoDup reach /\ NoDup pages /\ Forall page_static_ok pages /\ (forall i, i < hwm -> In i reach \/ In i freed).
  Proof.
    intros H Hseed. destruct (check_clean_stages _ _ _ H) as (reach & EC & Hd & Hs & Hsw).
    split; [apply dup_errs_nodup, Hd|].
    destruct (check_bucket_clean_visits _ _ _ _ EC) as (p & HB & Hf & Hn & Hnp & Hp);
      [cbn [seed snd]; rewrite Hd, Hs; reflexivity | exact (seed_nodup _ Hseed) |].
    cbn [seed fst] in Hf, Hn. exists p. split; [exact HB|]. cbv zeta. rewrite <- Hf.
    split; [exact Hn|]. split; [exact Hnp|]. split; [exact Hp | apply sweep_nil_iff, Hsw].
  Qed.

  (** ** the clean verdict when the root bucket is one leaf page without nested buckets, characterised exactly *)
  Definition no_buckets (pg : N) : Prop :=
    forall i, i < p_count pg -> N.odd (fst (fst (fst (lf_elem pg i)))) = false.

  Lemma nested_roots_leaf_nil f pg : is_leaf pg = true -> no_buckets pg -> nested_roots (S f) pg = Some [].
  Proof.
    intros Hl Hnb. cbn [Check.nested_roots]. rewrite (leaf_not_branch _ Hl), Hl. f_equal.
    (* the loop body tests the element's flags: [lf_elem] unfolds to a tuple *)
    apply (flat_map_if_nil (fun i => N.odd (fst (fst (fst (lf_elem pg i))))) (fun i => u64 rd (snd (fst (lf_elem pg i))))).
    intros i Hi. apply Hnb, run0_in, Hi.
  Qed.

  Lemma check_bucket_leaf f root s :
    is_leaf root = true -> root <> 0 -> no_buckets root ->
    check_bucket (S (S f)) root s =
    Some (fst (verify_reachable root s),
          rev (fst (fold_left (lf_step root None) (run 0 (p_count root)) ([], None))) ++ snd (verify_reachable root s)).
  Proof.
    intros Hl Hr Hnb.
    rewrite check_bucket_S, (proj2 (N.eqb_neq root 0) Hr), walk_reach_S, (key_order_leaf _ _ _ _ Hl).
    cbn [Check.walkable]. rewrite (leaf_not_branch _ Hl), Hl, (nested_roots_leaf_nil _ _ Hl Hnb). reflexivity.
  Qed.

  (** ... so that, when the keys are in order, the whole check is one call of verifyPageReachable between the seed
      test and the sweep *)
  Lemma check_leaf_root f flrun root :
    is_leaf root = true -> root <> 0 -> no_buckets root ->
    fst (fold_left (lf_step root None) (run 0 (p_count root)) ([], None)) = [] ->
    check (S (S f)) flrun root =
    let s := verify_reachable root (seed flrun) in Some (rev (snd s) ++ sweep (fst s)).
  Proof. intros Hl Hr Hnb HK. rewrite check_unfold, (check_bucket_leaf _ _ _ Hl Hr Hnb), HK. reflexivity. Qed.

  Theorem check_leaf_root_clean_iff f flrun root :
    is_leaf root = true -> root <> 0 -> no_buckets root ->
    (check (S (S f)) flrun root = Some [] <->
     NoDup freed /\ (forall id, id < hwm -> In id (flrun ++ [0; 1]) -> ~ In id freed) /\
     page_ok root (rev flrun ++ [1; 0]) /\ strictly_inc (leaf_keys root) = true /\
     (forall i, i < hwm -> In i (page_ids root ++ rev flrun ++ [1; 0]) \/ In i freed)).
  Proof.
    intros Hl Hr Hnb. rewrite check_unfold, (check_bucket_leaf _ _ _ Hl Hr Hnb).
    destruct (verify_reachable_spec root (seed flrun)) as [Hf (e & Hs & _ & Hiff)]. cbn [fst snd seed] in Hf, Hs, Hiff.
    rewrite Hf, Hs.
    set (kerrs := fst (fold_left (lf_step root None) (run 0 (p_count root)) ([], None))).
    assert (HK : kerrs = [] <-> strictly_inc (leaf_keys root) = true).
    { rewrite (key_order_leaf_clean 0 root None None kerrs _ Hl (key_order_leaf 0 root None None Hl)).
      split; [intros (H & _ & _); exact H | intros H; split; [exact H|]].
      split; [destruct (leaf_keys root); [exact I | reflexivity] | apply Forall_forall; intros; reflexivity]. }
    rewrite !rev_app_distr, !rev_involutive, <- !app_assoc.
    etransitivity; [split; [intros [= H]; exact H | intros ->; reflexivity]|].
    apply app_nil_iff; [apply dup_errs_nodup|]. apply app_nil_iff; [apply seed_errs_nil_iff|].
    apply app_nil_iff; [rewrite <- Hiff; split; [apply rev_eq_nil | intros ->; reflexivity]|].
    apply app_nil_iff; [exact HK | apply sweep_nil_iff].
  Qed.

  (** ** the clean verdict against the accounting predicate of the independent decoder, on a view with the shape
      [dec_with_meta] produces for a one-leaf-page root: [v_pages = [(stored id, overflow, flags)]] *)
  Theorem accounted_leaf_root_clean f flrun root (v : dbview) fl :
    is_leaf root = true -> root <> 0 -> no_buckets root ->
    v_pages v = [(p_hid root, p_ov root, fl)] -> v_flpage v = flrun -> m_mark (v_meta v) = hwm ->
    accounted v freed = true -> strictly_inc (leaf_keys root) = true ->
    check (S (S f)) flrun root = Some [].
  Proof.
    intros Hl Hr Hnb Hpg Hfl Hmk Hacc Hord. apply (check_leaf_root_clean_iff _ _ _ Hl Hr Hnb).
    apply accounted_sound in Hacc. cbv zeta in Hacc. rewrite Hpg, Hfl, Hmk in Hacc.
    unfold Layout.page_ids in Hacc. cbn [flat_map] in Hacc. rewrite app_nil_r in Hacc. destruct Hacc as [Hnd Hin].
    apply NoDup_app_iff in Hnd. destruct Hnd as (_ & Hnd & HdR). apply NoDup_app_iff in Hnd. destruct Hnd as (_ & Hnd & HdL).
    assert (Hrng : forall id, In id (run (p_hid root) (p_ov root + 1) ++ flrun ++ freed) -> 2 <= id < hwm)
      by (intros id H; destruct (proj1 (Hin id) H) as [H' | []]; exact H').
    assert (Hroot : forall id, In id (page_ids root) -> 2 <= id < hwm /\ ~ In id flrun /\ ~ In id freed).
    { intros id H. apply page_ids_run_in in H. split; [apply Hrng, in_app_iff; left; exact H|].
      split; intros H'; apply (HdR id H), in_app_iff; [left | right]; exact H'. }
    split; [exact Hnd|]. split; [|split; [|split; [exact Hord|]]].
    - intros id _ Hs Hc. apply seed_in, in_seed in Hs. destruct Hs as [Hs | Hs]; [exact (HdL id Hs Hc)|].
      apply N.lt_nge in Hs. apply Hs, Hrng, in_app3. right. right. exact Hc.
    - apply page_ok_iff. split; [split; [|split]|].
      + apply N.lt_le_incl, (Hroot (p_hid root)), page_ids_head.
      + intros id H. apply (Hroot id H).
      + rewrite Hl. apply orb_true_r.
      + intros id H Hc. apply in_seed in Hc. destruct Hc as [Hc | Hc]; [exact (proj1 (proj2 (Hroot id H)) Hc)|].
        apply N.lt_nge in Hc. apply Hc, (Hroot id H).
    - intros i Hi. destruct (N.lt_ge_cases i 2) as [Hlt | Hge].
      + left. apply in_app_iff. right. apply in_seed. right. exact Hlt.
      + assert (Hi' := proj2 (Hin i) (or_introl (conj Hge Hi))). apply in_app3 in Hi'.
        destruct Hi' as [Hi' | [Hi' | Hi']]; [left; apply in_app_iff; left; apply page_ids_run_in, Hi' | left | right; exact Hi'].
        apply in_app_iff. right. apply in_seed. left. exact Hi'.
  Qed.

  (** The converse needs what Tx.check does not test: every free id, every id of the freelist run and every id of the
      root's run lies in [2, mark) (see [clean_with_run_past_mark], [clean_with_free_id_past_mark],
      [clean_with_freelist_run_past_mark]).  That no id of the freelist run is free follows from the seed test. *)
  Theorem clean_leaf_root_accounted_partial f flrun root (v : dbview) fl :
    is_leaf root = true -> root <> 0 -> no_buckets root ->
    v_pages v = [(p_hid root, p_ov root, fl)] -> v_flpage v = flrun -> m_mark (v_meta v) = hwm ->
    NoDup flrun ->
    (forall id, In id (run (p_hid root) (p_ov root + 1) ++ flrun ++ freed) -> 2 <= id < hwm) ->
    check (S (S f)) flrun root = Some [] ->
    accounted v freed = true /\ strictly_inc (leaf_keys root) = true.
  Proof.
    intros Hl Hr Hnb Hpg Hfl Hmk Hndf Hrng Hc. apply (check_leaf_root_clean_iff _ _ _ Hl Hr Hnb) in Hc.
    destruct Hc as (Hnd & Hsf & Hok & Hord & Hcov). split; [|exact Hord].
    apply page_ok_iff in Hok. destruct Hok as [(_ & Hfree & _) Hreach].
    apply accounted_complete; cbv zeta; rewrite Hpg, Hfl, ?Hmk; unfold Layout.page_ids; cbn [flat_map]; rewrite app_nil_r.
    - apply NoDup_app_iff. split; [apply run_nat_nodup|].
      split; [apply NoDup_app_iff; split; [exact Hndf | split; [exact Hnd|]]|].
      + intros id Hid. apply Hsf; [|apply in_app_iff; left; exact Hid]. apply (Hrng id), in_app3. right. left. exact Hid.
      + intros id Hid Hc. apply page_ids_run_in in Hid. apply in_app_iff in Hc. destruct Hc as [Hc | Hc]; [|exact (Hfree id Hid Hc)].
        apply (Hreach id Hid), in_seed. left. exact Hc.
    - intros id. split; [apply Hrng|]. intros [Hge Hlt]. apply in_app3. destruct (Hcov id Hlt) as [H | H]; [|right; right; exact H].
      apply in_app_iff in H. destruct H as [H | H]; [left; apply page_ids_run_in, H|]. apply in_seed in H.
      destruct H as [H | H]; [right; left; exact H | destruct (proj1 (N.lt_nge _ _) H Hge)].
  Qed.

End ChkP.

(** Two meta pages as a conforming writer leaves them: the one with the larger txid is chosen.  Nothing is said about
    the bytes before, between and after the two structures beyond their number. *)
Lemma choose_meta_written ps (m0 m1 : meta) (p0 q0 p1 q1 : list N) :
  meta_fields_ok m0 -> meta_fields_ok m1 -> m_magic m1 = magic -> m_version m1 = version ->
  N.of_nat (length p0) = page_header_size -> N.of_nat (length (p0 ++ enc_meta m0 ++ q0 ++ p1)) = ps + page_header_size ->
  m_txid m0 < m_txid m1 ->
  choose_meta (rd_of (p0 ++ enc_meta m0 ++ q0 ++ p1 ++ enc_meta m1 ++ q1)) ps = Some (with_sum m1).
Proof.
  intros Hok0 Hok1 Hmg Hv Hp0 Hp1 Hlt. unfold choose_meta, rd_meta, meta_valid, meta_valid_at.
  rewrite N.mul_0_l, N.mul_1_l, N.add_0_l, <- Hp1, <- Hp0, (meta_roundtrip m0 p0 _ Hok0).
  replace (p0 ++ enc_meta m0 ++ q0 ++ p1 ++ enc_meta m1 ++ q1) with ((p0 ++ enc_meta m0 ++ q0 ++ p1) ++ enc_meta m1 ++ q1)
    by (rewrite <- !app_assoc; reflexivity).
  rewrite (meta_roundtrip m1 _ q1 Hok1), (meta_written_validates m1 _ q1 Hok1 Hmg Hv).
  cbn [with_sum m_txid]. rewrite (proj2 (N.ltb_lt _ _) Hlt). reflexivity.
Qed.
(** * Examples on a hand-built 3-page image (page size 128): two meta pages, leaf root page 2 *)
Definition ex_pad (n : nat) (l : list N) : list N := l ++ repeat 0 (n - length l).
Definition ex_meta (txid : N) : meta :=
  with_sum {| m_magic := magic; m_version := version; m_pagesize := 128; m_flags := 0; m_root := 2; m_seq := 0;
              m_fl := pgid_no_freelist; m_mark := 3; m_txid := txid; m_sum := 0 |}.
Definition ex_meta_page (slot txid : N) : list N :=
  ex_pad 128 (enc_page_header slot meta_page_flag 0 0 ++ enc_meta (ex_meta txid)).
Definition ex_kvs : list (bytes * bytes) := [([1], [2; 3]); ([4; 5], [6])].
Definition ex_image (root_page : list N) : list N := ex_meta_page 0 6 ++ ex_meta_page 1 7 ++ ex_pad 128 root_page.
Definition ex_rd : N -> N := rd_of (ex_image (enc_leaf_page 2 ex_kvs)).

Lemma ex_check freed hwm flrun :
  check ex_rd 128 freed hwm 10 flrun 2 =
  let s := verify_reachable ex_rd 128 freed hwm 2 (seed freed hwm flrun) in Some (rev (snd s) ++ sweep freed hwm (fst s)).
Proof.
  apply (check_leaf_root ex_rd 128 freed hwm 8 flrun 2).
  - vm_compute. reflexivity.
  - discriminate.
  - unfold no_buckets. replace (p_count ex_rd 128 2) with 2 by (vm_compute; reflexivity).
    intros [|[[]|[]|]] Hi; try discriminate Hi; vm_compute; reflexivity.
  - vm_compute. reflexivity.
Qed.

Example ex_clean : check ex_rd 128 [] 3 10 [] 2 = Some [].
Proof. rewrite ex_check. vm_compute. reflexivity. Qed.

Example ex_clean_file : check_file ex_rd 128 10 [] = Some [].
Proof.
  (* evaluating the two checksums is slow in the kernel: that the written metas validate is a theorem *)
  assert (Hok : forall t, t < 2 ^ 64 -> meta_fields_ok (ex_meta t)) by (intros t Ht; repeat split; try exact Ht; reflexivity).
  assert (Hm : choose_meta ex_rd 128 = Some (with_sum (ex_meta 7))).
  { unfold ex_rd, ex_image, ex_meta_page, ex_pad. rewrite <- !app_assoc.
    apply choose_meta_written; try reflexivity; apply Hok; reflexivity. }
  unfold check_file. rewrite Hm. exact ex_clean.
Qed.

Example ex_root_freed : check ex_rd 128 [2] 3 10 [] 2 = Some [EReachFreed 2].
Proof. rewrite ex_check. vm_compute. reflexivity. Qed.

Example ex_dup_free : check ex_rd 128 [3; 3] 4 10 [] 2 = Some [EAlreadyFreed 3].
Proof. rewrite ex_check. vm_compute. reflexivity. Qed.

Example ex_leak : check ex_rd 128 [] 5 10 [] 2 = Some [EUnreachUnfreed 3; EUnreachUnfreed 4].
Proof. rewrite ex_check. vm_compute. reflexivity. Qed.

Example ex_out_of_bounds : check ex_rd 128 [] 1 10 [] 2 = Some [EOutOfBounds 2].
Proof. rewrite ex_check. vm_compute. reflexivity. Qed.

Example ex_key_order :
  check (rd_of (ex_image (enc_leaf_page 2 [([4; 5], [6]); ([1], [2; 3])]))) 128 [] 3 10 [] 2 = Some [EKeyLt 2 1].
Proof. vm_compute. reflexivity. Qed.

Example ex_invalid_type :
  check (rd_of (ex_image (enc_page_header 2 freelist_page_flag 0 0))) 128 [] 3 10 [] 2
  = Some [EInvalidType 2; EUnexpectedType 2].
Proof. vm_compute. reflexivity. Qed.

(** A meta page or the freelist page listed as free: the pinned Go code did not test this (defect D14); the seed
    test of the repaired code reports them. *)
Example meta_free_reported : check ex_rd 128 [0] 3 10 [] 2 = Some [EReachFreed 0].
Proof. rewrite ex_check. vm_compute. reflexivity. Qed.

Example freelist_page_free_reported : check ex_rd 128 [3] 4 10 [3] 2 = Some [EReachFreed 3].
Proof. rewrite ex_check. vm_compute. reflexivity. Qed.

Example report_order : check ex_rd 128 [1; 1; 2] 4 10 [] 2 = Some [EAlreadyFreed 1; EReachFreed 1; EReachFreed 2; EUnreachUnfreed 3].
Proof. rewrite ex_check. vm_compute. reflexivity. Qed.

(** Still invisible: the seed test runs over the ids below the mark only, so a freelist page run lying at or above
    the mark (here id 5, mark 3) may be listed as free without any report. *)
Example clean_with_freelist_run_past_mark : check ex_rd 128 [5] 3 10 [5] 2 = Some [].
Proof. rewrite ex_check. vm_compute. reflexivity. Qed.

(** The bounds test looks only at the head id of a run and uses [>]: an overflow run reaching past the
    high-water mark (ids 3..7 with mark 3) is accepted, and so is a page whose id equals the mark. *)
Example clean_with_run_past_mark :
  check (rd_of (ex_image (enc_leaf_page_ov 2 5 ex_kvs))) 128 [] 3 10 [] 2 = Some [].
Proof. vm_compute. reflexivity. Qed.

(** A free id at or above the mark is accepted as well (only ids below the mark are swept, and nothing bounds the free ids). *)
Example clean_with_free_id_past_mark : check ex_rd 128 [9] 3 10 [] 2 = Some [].
Proof. rewrite ex_check. vm_compute. reflexivity. Qed.

Example head_id_equal_mark_not_out_of_bounds :
  verify_reachable ex_rd 128 [] 2 2 ([1; 0], []) = ([2; 1; 0], []).
Proof. vm_compute. reflexivity. Qed.

(** The walk records the id STORED in the page (p.Id()), not the position it was read from: a root at
    position 2 that claims to be page 3 makes 3 reachable and leaves 2 to the final sweep. *)
Example stored_id_is_what_counts :
  check (rd_of (ex_image (enc_leaf_page 3 ex_kvs))) 128 [] 4 10 [] 2 = Some [EUnreachUnfreed 2].
Proof. vm_compute. reflexivity. Qed.

Print Assumptions dup_errs_complete.
Print Assumptions dup_errs_nodup.
Print Assumptions verify_reachable_mono.
Print Assumptions walk_reach_mono.
Print Assumptions check_bucket_mono.
Print Assumptions check_sweep_complete.
Print Assumptions check_clean_covers.
Print Assumptions verify_reachable_silent_iff.
Print Assumptions verify_reachable_reach.
Print Assumptions walk_reach_clean.
Print Assumptions check_bucket_clean.
Print Assumptions check_clean_partition_partial.
Print Assumptions check_clean_partition.
Print Assumptions verify_key_nil_iff.
Print Assumptions key_order_leaf_clean.
Print Assumptions walk_reach_reach.
Print Assumptions check_bucket_reach.
Print Assumptions check_bucket_clean_visits.
Print Assumptions check_clean_visits.
Print Assumptions check_leaf_root_clean_iff.
Print Assumptions accounted_leaf_root_clean.
Print Assumptions clean_leaf_root_accounted_partial.
Print Assumptions check_errs_order.
Print Assumptions check_seed_free_reported.
Print Assumptions check_clean_partition_gen.
