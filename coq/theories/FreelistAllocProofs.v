(** Proofs about the array allocator model [allocate_array] (Freelist.v); then what both backends rest on:
    [spans] (the maximal runs of a strictly sorted id list) with [hm_can_allocate], and the decision
    procedure [alloc_ok]. *)
From Bbolt Require Import Base BaseProofs Freelist.

Lemma sortedb_run p k : sortedb (run p k) = true.
Proof. apply sortedb_run_nat. Qed.

Lemma remove_ids_segment a p n b :
  sortedb (a ++ run p n ++ b) = true ->
  remove_ids (run p n) (a ++ run p n ++ b) = a ++ b.
Proof.
  intros Hs. apply sortedb_app in Hs. destruct Hs as [_ [Hs Hab]].
  apply sortedb_app in Hs. destruct Hs as [_ [_ Hrb]].
  unfold remove_ids. rewrite !filter_app.
  rewrite (filter_none _ (run p n)).
  2:{ intros x Hx. apply negb_false_iff, memN_in. exact Hx. }
  cbn [app]. f_equal.
  - apply filter_id. intros x Hx. apply negb_true_iff, memN_false. intros Hr.
    specialize (Hab x x Hx). rewrite in_app_iff in Hab. specialize (Hab (or_introl Hr)). lia.
  - apply filter_id. intros x Hx. apply negb_true_iff, memN_false. intros Hr.
    specialize (Hrb x x Hr Hx). lia.
Qed.

Lemma run_open start size y l : y = start + size -> run start (size + 1) ++ l = run start size ++ y :: l.
Proof. intros ->. now rewrite run_snoc, <- app_assoc. Qed.

Definition has_run (n : N) (ids : list N) (q : N) : Prop := forall x, In x (run q n) -> In x ids.

Lemma scan_ok n : forall rest i initial previd,
  Forall (fun x => 2 <= x) rest -> exists r, scan rest n i initial previd = Ok r.
Proof.
  induction rest as [|id rest IH]; intros i initial previd HF.
  - eexists. reflexivity.
  - inversion HF as [|? ? Hid HF']; subst. cbn [scan].
    destruct (N.leb_spec id 1) as [Hle|_]; [lia|].
    destruct (_ =? n); [eexists; reflexivity|]. apply IH. exact HF'.
Qed.

Lemma below_after_run a p k rest x : sortedb (a ++ run p k ++ rest) = true -> 1 <= k ->
  In x (a ++ run p k ++ rest) -> (forall y, In y rest -> x < y) -> x < p + k.
Proof.
  intros Hs Hk Hx Hlt. apply sortedb_app in Hs. destruct Hs as (_ & _ & Ha).
  rewrite !in_app_iff in Hx. destruct Hx as [Hx|[Hx|Hx]].
  - assert (x < p); [|lia]. apply (Ha x p Hx). apply in_app_iff. left. apply run_in. lia.
  - apply run_in in Hx. lia.
  - specialize (Hlt x Hx). lia.
Qed.

(** In a sorted list where [id] follows the run [initial .. initial+k-1] after a gap, a run of [n > k] ids that
    starts at or above [initial] starts at or above [id]: below [id] it would hold the missing [initial + k]. *)
Lemma run_past_gap n a initial k id rest q :
  sortedb (a ++ run initial k ++ id :: rest) = true -> 1 <= k < n -> initial + k < id ->
  has_run n (a ++ run initial k ++ id :: rest) q -> initial <= q -> id <= q.
Proof.
  intros Hs Hk Hgap Hq Hiq. destruct (N.le_gt_cases id q) as [?|Hqid]; [assumption|]. exfalso.
  assert (Hb : forall x, In x (a ++ run initial k ++ id :: rest) -> x < id -> x < initial + k).
  { intros x Hx Hxid. apply (below_after_run a initial k (id :: rest) x Hs ltac:(lia) Hx).
    apply sortedb_app in Hs. destruct Hs as (_ & Hr & _). apply sortedb_app in Hr. destruct Hr as (_ & Hr & _).
    apply sortedb_cons in Hr. intros y [<-|Hy]; [exact Hxid | specialize (proj1 Hr y Hy); lia]. }
  pose proof (Hb q (Hq q ltac:(apply run_in; lia)) Hqid).
  assert (initial + k < initial + k); [|lia]. apply Hb; [apply Hq, run_in|]; lia.
Qed.

Lemma length_run_snoc a p k : length (a ++ run p (k + 1)) = S (length (a ++ run p k)).
Proof. rewrite run_snoc, app_assoc, app_length. cbn [length]. lia. Qed.

Definition scan_found (n : N) (ids : list N) (p : N) (i : nat) : Prop :=
  (p = 0 /\ forall q, ~ has_run n ids q) \/
  (2 <= p /\ (exists a b, ids = a ++ run p n ++ b /\ S i = length (a ++ run p n)) /\
   forall q, has_run n ids q -> p <= q).

(** loop invariant: the scan has read [a] and then the run [initial .. previd] of [k] ids, which is too short, and
    no run of [n] ids starts below [initial] *)
Lemma scan_spec n : forall rest a initial k previd i0 ids p i,
  ids = a ++ run initial k ++ rest -> i0 = length (a ++ run initial k) -> previd + 1 = initial + k ->
  sortedb ids = true -> Forall (fun x => 2 <= x) rest ->
  1 <= k < n -> 2 <= initial -> (forall q, has_run n ids q -> initial <= q) ->
  scan rest n i0 initial previd = Ok (p, i) -> scan_found n ids p i.
Proof.
  induction rest as [|id rest IH]; intros a initial k previd i0 ids p i Hids Hi0 Hprev Hs HF Hk Hi HJ Hscan;
    cbn [scan] in Hscan.
  - injection Hscan as <- <-. left. split; [reflexivity|]. intros q Hq. specialize (HJ q Hq).
    assert (q + n - 1 < initial + k); [|lia]. rewrite Hids in Hs.
    apply (below_after_run a initial k [] _ Hs); [lia | rewrite <- Hids; apply Hq, run_in; lia | intros y []].
  - apply Forall_cons_iff in HF. destruct HF as [Hid HF]. destruct (N.leb_spec id 1) as [?|_]; [lia|].
    pose proof Hs as Hs'. rewrite Hids in Hs'.
    assert (Hlt : previd < id).
    { apply sortedb_app in Hs'. destruct Hs' as (_ & Hr & _). apply sortedb_app in Hr. destruct Hr as (_ & _ & Hr).
      apply Hr; [apply run_in; lia | now left]. }
    destruct (N.eqb_spec previd 0) as [?|_]; [lia|]. cbn [orb] in Hscan.
    (* the model's tests subtract; what they say is put without subtraction at once, since a
       subtraction among the hypotheses makes every [lia] after it dearer to check *)
    destruct (N.eqb_spec (id - previd) 1) as [E|E]; cbn [negb] in Hscan.
    + (* [id] continues the run *)
      assert (E' : id = initial + k) by lia. clear E Hlt.
      rewrite <- (run_open initial k id rest E') in Hids.
      destruct (N.eqb_spec (id - initial + 1) n) as [En|En].
      * assert (En' : n = k + 1) by lia. clear En.
        injection Hscan as <- <-. right. split; [exact Hi|]. split; [|exact HJ].
        exists a, rest. rewrite En'. split; [exact Hids | now rewrite length_run_snoc, Hi0].
      * assert (En' : k + 1 < n) by lia. clear En.
        apply (IH a initial (k + 1) id (S i0) ids);
          [exact Hids | now rewrite length_run_snoc, Hi0 | lia | exact Hs | exact HF | lia | exact Hi | exact HJ | exact Hscan].
    + (* a gap: the run starts again at [id] *)
      assert (E' : initial + k < id) by lia. clear E Hlt.
      destruct (N.eqb_spec (id - id + 1) n) as [?|_]; [lia|].
      apply (IH (a ++ run initial k) id 1 id (S i0) ids);
        [now rewrite <- app_assoc | now rewrite (length_run_snoc _ id 0), app_nil_r, Hi0 | lia | exact Hs | exact HF
        | lia | exact Hid | | exact Hscan].
      intros q Hq. rewrite Hids in Hq. apply (run_past_gap n a initial k id rest q Hs' Hk E' Hq).
      rewrite <- Hids in Hq. exact (HJ q Hq).
Qed.

Lemma allocate_array_spec txid n s :
  sortedb (free s) = true -> Forall (fun x => 2 <= x) (free s) -> 0 < n ->
  (allocate_array txid n s = Ok (0, s) /\ forall q, ~ has_run n (free s) q) \/
  (exists p a b, 2 <= p /\ free s = a ++ run p n ++ b /\ (forall q, has_run n (free s) q -> p <= q) /\
     allocate_array txid n s =
       Ok (p, {| free := a ++ b; pending := pending s; allocs := aset p txid (allocs s); readers := readers s |})).
Proof.
  intros Hs HF Hn. unfold allocate_array.
  destruct (free s) as [|f l] eqn:E.
  - left. split; [reflexivity|]. intros q Hq. apply (Hq q). apply run_in. lia.
  - destruct (scan_ok n (f :: l) 0%nat 0 0 HF) as [[p i] Hscan]. rewrite Hscan. cbn [bindr].
    assert (Hfound : scan_found n (f :: l) p i).
    { (* the first id opens the first run; no run starts below it *)
      apply Forall_cons_iff in HF. destruct HF as [Hf HF]. cbn [scan] in Hscan. destruct (N.leb_spec f 1); [lia|].
      cbn [N.eqb orb] in Hscan. rewrite N.sub_diag in Hscan.
      assert (Hmin : forall q, has_run n (f :: l) q -> f <= q).
      { intros q Hq. apply sortedb_cons in Hs.
        destruct (Hq q ltac:(apply run_in; lia)) as [<-|Hin]; [lia | specialize (proj1 Hs q Hin); lia]. }
      destruct (N.eqb_spec (0 + 1) n) as [<-|En].
      - injection Hscan as <- <-. right. split; [exact Hf|]. split; [|exact Hmin]. now exists [], l.
      - apply (scan_spec n l [] f 1 f 1%nat);
          [reflexivity | reflexivity | lia | exact Hs | exact HF | lia | exact Hf | exact Hmin | exact Hscan]. }
    destruct Hfound as [[Hp Hno]|[Hp [[a [b [Hab Hi]]] Hlow]]].
    + left. subst p. cbn [N.eqb]. split; [reflexivity | exact Hno].
    + right. exists p, a, b. destruct (N.eqb_spec p 0) as [?|_]; [lia|].
      split; [exact Hp|]. split; [exact Hab|]. split; [exact Hlow|].
      do 3 f_equal. unfold remove_run. rewrite Hab.
      rewrite app_length, run_length in Hi. apply remove_run_segment; [apply run_length | lia | lia].
Qed.

Theorem allocate_array_no_panic txid n s :
  sortedb (free s) = true -> Forall (fun x => 2 <= x) (free s) ->
  allocate_array txid n s <> Panic /\ allocate_array txid n s <> OutOfFuel.
Proof.
  intros _ HF. unfold allocate_array. destruct (free s) as [|f l] eqn:E.
  - split; discriminate.
  - destruct (scan_ok n (f :: l) 0%nat 0 0 HF) as [[p i] Hscan]. rewrite Hscan. cbn [bindr].
    destruct (p =? 0); split; discriminate.
Qed.

Theorem allocate_array_sound txid n s p s' :
  sortedb (free s) = true -> Forall (fun x => 2 <= x) (free s) -> 0 < n ->
  allocate_array txid n s = Ok (p, s') -> p <> 0 ->
  2 <= p /\ (forall x, In x (run p n) -> In x (free s)) /\ free s' = remove_ids (run p n) (free s) /\
  pending s' = pending s /\ readers s' = readers s /\ alookup p (allocs s') = Some txid.
Proof.
  intros Hs HF Hn Hal Hp0.
  destruct (allocate_array_spec txid n s Hs HF Hn) as [[H0 _]|[p1 [a [b [Hp [Hab [_ H1]]]]]]].
  - rewrite H0 in Hal. inversion Hal. congruence.
  - rewrite H1 in Hal. inversion Hal; subst p1 s'. clear Hal. cbn [free pending readers allocs].
    split; [exact Hp|]. split; [|split; [|split; [reflexivity|split; [reflexivity|]]]].
    + intros x Hx. rewrite Hab. apply in_app_iff. right. apply in_app_iff. now left.
    + rewrite Hab in Hs |- *. symmetry. apply remove_ids_segment. exact Hs.
    + unfold aset. cbn [alookup]. now rewrite N.eqb_refl.
Qed.

Theorem allocate_array_complete txid n s s' :
  sortedb (free s) = true -> Forall (fun x => 2 <= x) (free s) -> 0 < n ->
  allocate_array txid n s = Ok (0, s') ->
  s' = s /\ ~ (exists q, forall x, In x (run q n) -> In x (free s)).
Proof.
  intros Hs HF Hn Hal.
  destruct (allocate_array_spec txid n s Hs HF Hn) as [[H0 Hno]|[p1 [a [b [Hp [Hab [_ H1]]]]]]].
  - rewrite H0 in Hal. injection Hal as <-. split; [reflexivity|]. intros [q Hq]. exact (Hno q Hq).
  - rewrite H1 in Hal. inversion Hal. lia.
Qed.

Theorem allocate_array_lowest txid n s p s' :
  sortedb (free s) = true -> Forall (fun x => 2 <= x) (free s) -> 0 < n ->
  allocate_array txid n s = Ok (p, s') -> p <> 0 ->
  forall q, (forall x, In x (run q n) -> In x (free s)) -> p <= q.
Proof.
  intros Hs HF Hn Hal Hp0 q Hq.
  destruct (allocate_array_spec txid n s Hs HF Hn) as [[H0 _]|[p1 [a [b [Hp [Hab [Hlow H1]]]]]]].
  - rewrite H0 in Hal. inversion Hal. congruence.
  - rewrite H1 in Hal. inversion Hal; subst p1. exact (Hlow q Hq).
Qed.

(** The spans of a sorted id list serve both backends: the hashmap allocator hands out the start of a span,
    and [alloc_ok] states "no run of [n] ids" and "the lowest run" over spans.  [spans_aux start size l] reads [l]
    with the run [start .. start+size-1] open: together they are the sorted list [run start size ++ l], which
    taking the next id into the open run leaves as it is *)
Lemma spans_aux_cover l : forall start size x, In x (run start size ++ l) ->
  exists s z, In (s, z) (spans_aux start size l) /\ s <= x < s + z.
Proof.
  induction l as [|y l IH]; intros start size x Hx; cbn [spans_aux].
  - rewrite app_nil_r in Hx. apply run_in in Hx. exists start, size. split; [now left | exact Hx].
  - destruct (N.eqb_spec y (start + size)) as [E|NE].
    + apply IH. now rewrite (run_open _ _ y).
    + apply in_app_iff in Hx. destruct Hx as [Hx|Hx].
      * apply run_in in Hx. exists start, size. split; [now left | exact Hx].
      * destruct (IH y 1 x Hx) as (s & z & Hin & Hr). exists s, z. split; [now right | exact Hr].
Qed.

Lemma open_run_span start size l : (forall u, In u l -> start + size < u) ->
  (forall x, start <= x < start + size -> In x (run start size ++ l)) /\
  ~ In (start + size) (run start size ++ l) /\ (forall x, x + 1 = start -> ~ In x (run start size ++ l)).
Proof.
  intros Hgt. split; [intros x Hx; apply in_app_iff; left; now apply run_in|].
  split; [|intros x Hx]; rewrite in_app_iff, run_in; (intros [H|H]; [lia | specialize (Hgt _ H); lia]).
Qed.

Lemma spans_aux_sound l : forall start size, 1 <= size -> sortedb (run start size ++ l) = true ->
  forall s z, In (s, z) (spans_aux start size l) ->
  start <= s /\ 1 <= z /\ (forall x, s <= x < s + z -> In x (run start size ++ l)) /\
  ~ In (s + z) (run start size ++ l) /\ (forall x, x + 1 = s -> ~ In x (run start size ++ l)).
Proof.
  induction l as [|y l IH]; intros start size Hsz Hs s z Hin; cbn [spans_aux] in Hin.
  - destruct Hin as [[= <- <-]|[]]. split; [lia|]. split; [exact Hsz|]. apply open_run_span. intros u [].
  - destruct (N.eqb_spec y (start + size)) as [E|NE].
    + rewrite <- (run_open _ _ y l E) in Hs |- *. apply IH; [lia | exact Hs | exact Hin].
    + apply sortedb_app in Hs. destruct Hs as (_ & Hyl & Hlt).
      assert (Hge : forall u, In u (y :: l) -> start + size < u).
      { intros u Hu. assert (start + size - 1 < y) by (apply Hlt; [apply run_in; lia | now left]).
        apply sortedb_cons in Hyl. destruct Hu as [<-|Hu]; [lia | specialize (proj1 Hyl u Hu); lia]. }
      destruct Hin as [[= <- <-]|Hin]; [split; [lia|]; split; [exact Hsz|]; now apply open_run_span|].
      destruct (IH y 1 ltac:(lia) Hyl s z Hin) as (Hys & Hz & Hsub & Hnin & Hl).
      pose proof (Hge y (or_introl eq_refl)).
      split; [lia|]. split; [exact Hz|]. split; [intros x Hx; apply in_app_iff; right; now apply Hsub|].
      split; [|intros x Hx]; rewrite in_app_iff, run_in; (intros [H1|H1]; [lia|]).
      * exact (Hnin H1).
      * exact (Hl x Hx H1).
Qed.

Lemma spans_cover l x : In x l -> exists s z, In (s, z) (spans l) /\ s <= x < s + z.
Proof. destruct l as [|y l]; [intros []|]. exact (spans_aux_cover l y 1 x). Qed.

Lemma spans_sound l s z : sortedb l = true -> In (s, z) (spans l) ->
  1 <= z /\ (forall x, s <= x < s + z -> In x l) /\ ~ In (s + z) l /\ (forall x, x + 1 = s -> ~ In x l).
Proof.
  destruct l as [|y l]; [intros _ []|]. intros Hs Hin.
  exact (proj2 (spans_aux_sound l y 1 ltac:(lia) Hs s z Hin)).
Qed.

Lemma run_in_span l n q : sortedb l = true -> 0 < n -> has_run n l q ->
  exists s z, In (s, z) (spans l) /\ s <= q /\ q + n <= s + z.
Proof.
  intros Hs Hn Hq.
  assert (Hin : In q l) by (apply Hq, run_in; lia).
  destruct (spans_cover l q Hin) as [s [z [Hsp Hr]]].
  exists s, z. split; [exact Hsp|]. split; [lia|].
  destruct (spans_sound l s z Hs Hsp) as (_ & _ & Hnin & _).
  destruct (N.le_gt_cases (q + n) (s + z)) as [?|Hgt]; [assumption|].
  exfalso. apply Hnin. apply Hq, run_in. lia.
Qed.

Theorem hm_can_allocate_iff fb n : sortedb fb = true -> 0 < n ->
  (hm_can_allocate fb n = true <-> exists q, forall x, In x (run q n) -> In x fb).
Proof.
  intros Hs Hn. unfold hm_can_allocate. rewrite existsb_exists. split.
  - intros [[s z] [Hin Hle]]. cbn [snd] in Hle. apply N.leb_le in Hle.
    destruct (spans_sound fb s z Hs Hin) as (_ & Hsub & _).
    exists s. intros x Hx. apply run_in in Hx. apply Hsub. lia.
  - intros [q Hq]. destruct (run_in_span fb n q Hs Hn Hq) as [s [z [Hin [H1 H2]]]].
    exists (s, z). split; [exact Hin|]. cbn [snd]. apply N.leb_le. lia.
Qed.

Definition array_lowest (b : backend) (fb : list N) (n ret : N) : Prop :=
  match b with
  | Array => forall s z, In (s, z) (spans fb) -> s < ret -> z < n /\ (ret < s + z -> s + z - ret < n)
  | Hashmap => True
  end.

Lemma alloc_ok_zero_iff b fb n fa :
  alloc_ok b fb n 0 fa = true <-> fa = fb /\ (0 < n -> hm_can_allocate fb n = false).
Proof.
  unfold alloc_ok. cbn [N.eqb]. rewrite andb_true_iff, eqlN_true_iff, negb_true_iff.
  destruct (N.ltb_spec 0 n); cbn [andb]; intuition lia.
Qed.

Lemma array_lowest_iff b fb n ret :
  match b with
  | Array => negb (existsb (fun s => (fst s <? ret) && (n <=? snd s)) (spans fb))
             && negb (existsb (fun s => (fst s <? ret) && (ret <? fst s + snd s)
                                        && (n <=? fst s + snd s - ret)) (spans fb))
  | Hashmap => true end = true <-> array_lowest b fb n ret.
Proof.
  destruct b; cbn [array_lowest]; [|tauto]. rewrite andb_true_iff, !negb_existsb. split.
  - intros [H1 H2] s z Hin Hlt. specialize (H1 _ Hin). specialize (H2 _ Hin). cbn [fst snd] in H1, H2.
    apply N.ltb_lt in Hlt. rewrite Hlt in H1, H2. cbn [andb] in H1, H2. apply N.leb_gt in H1.
    split; [exact H1|]. intros Hr. apply N.ltb_lt in Hr. rewrite Hr in H2. now apply N.leb_gt in H2.
  - intros H. split; intros [s z] Hin; cbn [fst snd]; destruct (N.ltb_spec s ret) as [Hlt|]; try reflexivity;
      destruct (H s z Hin Hlt) as [H1 H2]; cbn [andb]; [now apply N.leb_gt|].
    destruct (N.ltb_spec ret (s + z)) as [Hr|]; [|reflexivity]. now apply N.leb_gt, H2.
Qed.

Lemma alloc_ok_nonzero_iff b fb n ret fa : ret <> 0 ->
  (alloc_ok b fb n ret fa = true <->
   2 <= ret /\ 0 < n /\ (forall x, In x (run ret n) -> In x fb) /\ fa = remove_ids (run ret n) fb /\
   array_lowest b fb n ret).
Proof.
  intros NE. unfold alloc_ok. destruct (N.eqb_spec ret 0) as [?|_]; [contradiction|].
  rewrite !andb_true_iff, N.leb_le, N.ltb_lt, forallb_memN, eqlN_true_iff, array_lowest_iff. tauto.
Qed.

(** What the check accepts satisfies the declarative statement of Allocate, whatever the backend. *)
Theorem alloc_ok_sound b fb n ret fa : sortedb fb = true -> alloc_ok b fb n ret fa = true ->
  (ret = 0 -> fa = fb /\ (0 < n -> ~ exists q, forall x, In x (run q n) -> In x fb)) /\
  (ret <> 0 -> 2 <= ret /\ 0 < n /\ (forall x, In x (run ret n) -> In x fb) /\ fa = remove_ids (run ret n) fb).
Proof.
  intros Hs Hok. split.
  - intros ->. apply alloc_ok_zero_iff in Hok. destruct Hok as [-> Hno]. split; [reflexivity|].
    intros Hn Hex. apply (hm_can_allocate_iff fb n Hs Hn) in Hex. rewrite (Hno Hn) in Hex. discriminate.
  - intros NE. apply (alloc_ok_nonzero_iff _ _ _ _ _ NE) in Hok. tauto.
Qed.

Theorem alloc_ok_array_sound fb n ret fa : sortedb fb = true -> alloc_ok Array fb n ret fa = true ->
  (ret = 0 -> fa = fb /\ (0 < n -> ~ exists q, forall x, In x (run q n) -> In x fb)) /\
  (ret <> 0 -> 2 <= ret /\ 0 < n /\ (forall x, In x (run ret n) -> In x fb) /\ fa = remove_ids (run ret n) fb).
Proof. apply alloc_ok_sound. Qed.

(** The Array-specific part of the check: the returned run is the lowest one. *)
Theorem alloc_ok_array_lowest fb n ret fa : sortedb fb = true -> alloc_ok Array fb n ret fa = true ->
  ret <> 0 -> forall q, (forall x, In x (run q n) -> In x fb) -> ret <= q.
Proof.
  intros Hs Hok NE0 q Hq. apply (alloc_ok_nonzero_iff _ _ _ _ _ NE0) in Hok.
  destruct Hok as (_ & Hn & _ & _ & Hlow).
  destruct (N.le_gt_cases ret q) as [?|Hlt]; [assumption|]. exfalso.
  destruct (run_in_span fb n q Hs Hn Hq) as [s [z [Hin [H1 H2]]]].
  destruct (Hlow s z Hin) as [H3 _]; lia.
Qed.

(** The check is not vacuous: it accepts what the model of array.Allocate does. *)
Theorem allocate_array_alloc_ok txid n s p s' :
  sortedb (free s) = true -> Forall (fun x => 2 <= x) (free s) -> 0 < n ->
  allocate_array txid n s = Ok (p, s') -> alloc_ok Array (free s) n p (free s') = true.
Proof.
  intros Hs HF Hn Hal. destruct (N.eq_dec p 0) as [->|NE0].
  - destruct (allocate_array_complete txid n s s' Hs HF Hn Hal) as [-> Hno].
    apply alloc_ok_zero_iff. split; [reflexivity|]. intros _. apply not_true_iff_false.
    intros Hc. apply Hno. now apply (hm_can_allocate_iff (free s) n Hs Hn).
  - destruct (allocate_array_sound txid n s p s' Hs HF Hn Hal NE0) as [Hp [Hrun [Hfree _]]].
    pose proof (allocate_array_lowest txid n s p s' Hs HF Hn Hal NE0) as Hlow.
    apply (alloc_ok_nonzero_iff _ _ _ _ _ NE0).
    split; [exact Hp|]. split; [exact Hn|]. split; [exact Hrun|]. split; [exact Hfree|].
    (* a span below [p] with room for [n] ids would hold a run that starts below [p] *)
    intros st z Hin Hlt. destruct (spans_sound (free s) st z Hs Hin) as (_ & Hsub & _).
    assert (z < n); [|lia]. apply N.lt_nge. intros Hle.
    assert (p <= st); [|lia]. apply Hlow. intros x Hx. apply run_in in Hx. apply Hsub. lia.
Qed.
