(** Node.v (the model of node.go): bisection = linear search, a sorted node is a sorted map under put/del, sizeLessThan,
    split loses and reorders nothing, write = the published page layout, write/read round trip. *)
From Bbolt Require Import Base BaseProofs Consts Spec SpecProofs Layout LayoutEnc LayoutProofs LayoutPageProofs Node.

Lemma div2_mid i j : (i < j)%nat -> (i <= Nat.div2 (i + j) < j)%nat.
Proof.
  intros H. rewrite Nat.div2_div. split.
  - apply Nat.div_le_lower_bound; lia.
  - apply Nat.div_lt_upper_bound; lia.
Qed.

Lemma bsearch_spec fuel : forall f i j,
  (j - i < fuel)%nat -> (i <= j)%nat ->
  (forall a b, (a <= b)%nat -> (b < j)%nat -> f a = true -> f b = true) ->
  let r := bsearch fuel f i j in
  (i <= r <= j)%nat /\ (forall k, (i <= k < r)%nat -> f k = false) /\ ((r < j)%nat -> f r = true).
Proof.
  induction fuel as [|fu IH]; intros f i j Hfu Hij Hmono; [lia|].
  cbn [bsearch]. destruct (Nat.ltb_spec i j) as [Hlt|Hge]; [|cbv zeta; repeat split; intros; lia].
  destruct (div2_mid i j Hlt) as [Hh1 Hh2]. set (h := Nat.div2 (i + j)) in *.
  destruct (f h) eqn:Fh.
  - specialize (IH f i h). cbv zeta in IH. set (r := bsearch fu f i h) in *.
    destruct IH as (B & L & T); [lia | exact Hh1 | intros a b Hab Hb; apply Hmono; [exact Hab | lia] |].
    split; [lia|]. split; [exact L|].
    intros Hr. destruct (Nat.eq_dec r h) as [E|NE]; [rewrite E; exact Fh | apply T; lia].
  - specialize (IH f (S h) j). cbv zeta in IH. set (r := bsearch fu f (S h) j) in *.
    destruct IH as (B & L & T); [lia | exact Hh2 | exact Hmono |].
    split; [lia|]. split; [|exact T].
    intros k Hk. destruct (Nat.le_gt_cases k h) as [Hkh|Hkh]; [|apply L; lia].
    destruct (f k) eqn:Fk; [|reflexivity].
    rewrite (Hmono k h Hkh Hh2 Fk) in Fh. discriminate.
Qed.

Theorem search_spec n f :
  (forall a b, (a <= b)%nat -> (b < n)%nat -> f a = true -> f b = true) ->
  (search n f <= n)%nat /\ (forall k, (k < search n f)%nat -> f k = false) /\ ((search n f < n)%nat -> f (search n f) = true).
Proof.
  intros Hmono. unfold search.
  destruct (bsearch_spec (S n) f 0%nat n) as (B & L & T); [lia | lia | exact Hmono |].
  cbv zeta in *. split; [lia|]. split; [intros k Hk; apply L; lia | exact T].
Qed.

Theorem search_least n f r :
  (forall a b, (a <= b)%nat -> (b < n)%nat -> f a = true -> f b = true) ->
  (r <= n)%nat -> (forall k, (k < r)%nat -> f k = false) -> ((r < n)%nat -> f r = true) ->
  search n f = r.
Proof.
  intros Hmono Hr Hl Ht. destruct (search_spec n f Hmono) as (B & L & T).
  destruct (Nat.lt_trichotomy (search n f) r) as [H|[H|H]]; [|exact H|].
  - rewrite (Hl _ H) in T. specialize (T ltac:(lia)). discriminate.
  - rewrite (L _ H) in Ht. specialize (Ht ltac:(lia)). discriminate.
Qed.

Definition isorted (l : list inode) : Prop := keys_sorted (keys_of l) = true.

Lemma isorted_cons x l : isorted (x :: l) <->
  Forall (fun y => blt (i_key x) (i_key y) = true) l /\ isorted l.
Proof.
  unfold isorted. revert x. induction l as [|y l IH]; intros x.
  - cbn. split; [intros _; split; [constructor | reflexivity] | reflexivity].
  - change (keys_sorted (keys_of (x :: y :: l))) with (blt (i_key x) (i_key y) && keys_sorted (keys_of (y :: l))).
    rewrite andb_true_iff. split.
    + intros [H1 H2]. split; [|exact H2]. constructor; [exact H1|].
      exact (Forall_impl _ (fun z => blt_trans _ _ _ H1) (proj1 (proj1 (IH y) H2))).
    + intros [H1 H2]. split; [now inversion H1 | exact H2].
Qed.

Lemma isorted_nil : isorted [].
Proof. reflexivity. Qed.

(** the elements below [k] of a sorted list form a prefix; [pos_of] is its length *)
Definition below (k : bytes) (i : inode) : bool := blt (i_key i) k.
Definition pos_of (k : bytes) (l : list inode) : nat := length (filter (below k) l).

Lemma pos_of_le k l : (pos_of k l <= length l)%nat.
Proof. unfold pos_of. induction l as [|x l IH]; [cbn; lia|]. cbn. destruct (below k x); cbn; lia. Qed.

Lemma below_none x l k : Forall (fun y => blt (i_key x) (i_key y) = true) l -> below k x = false ->
  forall y, In y l -> below k y = false.
Proof.
  intros H Hx y Hy. rewrite Forall_forall in H. exact (ble_trans _ _ _ Hx (blt_asym _ _ (H y Hy))).
Qed.

Lemma pos_of_cons_ge k x r : isorted (x :: r) -> below k x = false -> pos_of k (x :: r) = 0%nat.
Proof.
  intros Hs Hx. apply isorted_cons in Hs. destruct Hs as [Hall _].
  unfold pos_of. cbn [filter]. rewrite Hx. now rewrite (filter_none _ _ (below_none _ _ _ Hall Hx)).
Qed.
Lemma pos_of_cons_lt k x r : below k x = true -> pos_of k (x :: r) = S (pos_of k r).
Proof. intros Hx. unfold pos_of. cbn [filter]. now rewrite Hx. Qed.

Lemma key_ge_pos l k : isorted l -> forall i, key_ge l k i = (pos_of k l <=? i)%nat.
Proof.
  induction l as [|y l IH]; intros Hs i; [now destruct i|].
  destruct (below k y) eqn:By.
  - rewrite (pos_of_cons_lt _ _ _ By). destruct i as [|i].
    + unfold key_ge. cbn [nth_error]. fold (below k y). now rewrite By.
    + apply isorted_cons in Hs. exact (IH (proj2 Hs) i).
  - rewrite (pos_of_cons_ge _ _ _ Hs By). unfold key_ge. destruct (nth_error (y :: l) i) as [x|] eqn:E; [|reflexivity].
    apply negb_true_iff. destruct i as [|i]; cbn [nth_error] in E; [now injection E as <-|].
    apply isorted_cons in Hs. exact (below_none _ _ _ (proj1 Hs) By _ (nth_error_In _ _ E)).
Qed.

Theorem search_sorted l k : keys_sorted (keys_of l) = true ->
  search (length l) (key_ge l k) = length (filter (fun i => blt (i_key i) k) l).
Proof.
  intros Hs. fold (isorted l) in Hs. change (length (filter _ l)) with (pos_of k l). apply search_least.
  - intros a b Hab _. rewrite !(key_ge_pos l k Hs), !Nat.leb_le. lia.
  - apply pos_of_le.
  - intros j Hj. rewrite (key_ge_pos l k Hs). now apply Nat.leb_gt.
  - intros _. rewrite (key_ge_pos l k Hs). apply Nat.leb_refl.
Qed.

Fixpoint ins (ni : inode) (l : list inode) : list inode :=
  match l with
  | [] => [ni]
  | x :: r => match bcmp (i_key ni) (i_key x) with Eq => ni :: r | Lt => ni :: l | Gt => x :: ins ni r end
  end.
Fixpoint rem (k : bytes) (l : list inode) : list inode :=
  match l with
  | [] => []
  | x :: r => match bcmp k (i_key x) with Eq => r | Lt => l | Gt => x :: rem k r end
  end.

Lemma cmp_cases k x :
  match bcmp k (i_key x) with
  | Eq => below k x = false /\ beq (i_key x) k = true /\ i_key x = k
  | Lt => below k x = false /\ beq (i_key x) k = false /\ blt k (i_key x) = true
  | Gt => below k x = true /\ beq (i_key x) k = false /\ blt k (i_key x) = false
  end.
Proof.
  unfold below, blt, beq. rewrite (bcmp_antisym k (i_key x)).
  destruct (bcmp k (i_key x)) eqn:E; cbn; repeat split. symmetry. now apply bcmp_eq.
Qed.

(** the [exact] test of node.put and node.del *)
Definition exact_at (k : bytes) (l : list inode) (c : nat) : bool :=
  match nth_error l c with Some i => beq (i_key i) k | None => false end.

Lemma put_list ni l : isorted l ->
  let k := i_key ni in let c := pos_of k l in
  firstn c l ++ ni :: skipn (if exact_at k l c then S c else c) l = ins ni l.
Proof.
  cbv zeta. induction l as [|x r IH]; intros Hs; [reflexivity|].
  pose proof (cmp_cases (i_key ni) x) as C. cbn [ins].
  destruct (bcmp (i_key ni) (i_key x)); destruct C as (B & Q & K).
  1, 2: rewrite (pos_of_cons_ge _ _ _ Hs B); unfold exact_at; cbn [nth_error firstn app]; now rewrite Q.
  rewrite (pos_of_cons_lt _ _ _ B). apply isorted_cons in Hs. rewrite <- (IH (proj2 Hs)).
  change (exact_at (i_key ni) (x :: r) (S ?c)) with (exact_at (i_key ni) r c).
  now destruct (exact_at (i_key ni) r (pos_of (i_key ni) r)).
Qed.

Theorem put_is_insert mark n k v pg fl :
  keys_sorted (keys_of (n_inodes n)) = true -> pg < mark -> len k <> 0 ->
  put mark n k k v pg fl =
  Ok {| n_leaf := n_leaf n; n_unbal := n_unbal n;
        n_inodes := ins {| i_flags := fl; i_key := k; i_val := v; i_pgid := pg |} (n_inodes n) |}.
Proof.
  intros Hs Hpg Hk. unfold put.
  destruct (N.leb_spec mark pg) as [H|_]; [lia|].
  destruct (N.eqb_spec (len k) 0) as [H|_]; [contradiction|].
  f_equal. f_equal. rewrite (search_sorted _ k Hs).
  exact (put_list {| i_flags := fl; i_key := k; i_val := v; i_pgid := pg |} (n_inodes n) Hs).
Qed.

Lemma below_head k x r : isorted (x :: r) -> blt k (i_key x) = true -> Forall (fun y => blt k (i_key y) = true) (x :: r).
Proof.
  intros Hs K. apply isorted_cons in Hs. constructor; [exact K|].
  eapply Forall_impl; [|exact (proj1 Hs)]. intros y. apply blt_trans, K.
Qed.

Lemma ins_head_bound k0 ni l :
  Forall (fun y => blt k0 (i_key y) = true) l -> blt k0 (i_key ni) = true ->
  Forall (fun y => blt k0 (i_key y) = true) (ins ni l).
Proof.
  induction l as [|x r IH]; intros Hl Hn; cbn [ins]; [constructor; [exact Hn | constructor]|].
  inversion Hl as [|? ? Hx Hr]; subst.
  destruct (bcmp (i_key ni) (i_key x)); constructor; auto.
Qed.

Theorem ins_sorted ni l : keys_sorted (keys_of l) = true -> keys_sorted (keys_of (ins ni l)) = true.
Proof.
  fold (isorted l). fold (isorted (ins ni l)).
  induction l as [|x r IH]; intros Hs; [reflexivity|].
  pose proof (cmp_cases (i_key ni) x) as C. cbn [ins].
  pose proof Hs as Hs0. apply isorted_cons in Hs. destruct Hs as [Hall Hs].
  destruct (bcmp (i_key ni) (i_key x)); destruct C as (B & Q & K).
  - apply isorted_cons. rewrite <- K. split; assumption.
  - apply isorted_cons. split; [exact (below_head _ _ _ Hs0 K) | exact Hs0].
  - apply isorted_cons. split; [apply ins_head_bound; [exact Hall | exact B] | apply IH; exact Hs].
Qed.

(** [ilookup] scans the whole list, so the two lookup laws of [ins] hold for every list (sortedness is not needed) *)
Theorem ins_lookup_same ni l : ilookup (i_key ni) (ins ni l) = Some ni.
Proof.
  induction l as [|x r IH]; cbn [ins ilookup]; [now rewrite beq_refl|].
  pose proof (cmp_cases (i_key ni) x) as C.
  destruct (bcmp (i_key ni) (i_key x)); destruct C as (B & Q & K); cbn [ilookup]; [now rewrite beq_refl.. | now rewrite Q].
Qed.

Theorem ins_lookup_other ni l k' : k' <> i_key ni -> ilookup k' (ins ni l) = ilookup k' l.
Proof.
  intros Hne. assert (N : beq (i_key ni) k' = false) by (apply beq_false_iff; congruence).
  induction l as [|x r IH]; cbn [ins ilookup]; [now rewrite N|].
  pose proof (cmp_cases (i_key ni) x) as C.
  destruct (bcmp (i_key ni) (i_key x)); destruct C as (B & Q & K); cbn [ilookup].
  - now rewrite K, N.
  - now rewrite N.
  - now rewrite IH.
Qed.

Lemma del_list k l : isorted l ->
  let c := pos_of k l in
  (if exact_at k l c then firstn c l ++ skipn (S c) l else l) = rem k l.
Proof.
  cbv zeta. induction l as [|x r IH]; intros Hs; [reflexivity|].
  pose proof (cmp_cases k x) as C. cbn [rem].
  destruct (bcmp k (i_key x)); destruct C as (B & Q & K).
  1, 2: rewrite (pos_of_cons_ge _ _ _ Hs B); unfold exact_at; cbn [nth_error]; now rewrite Q.
  rewrite (pos_of_cons_lt _ _ _ B). apply isorted_cons in Hs. rewrite <- (IH (proj2 Hs)).
  change (exact_at k (x :: r) (S ?c)) with (exact_at k r c).
  now destruct (exact_at k r (pos_of k r)).
Qed.

Lemma del_unfold n k :
  del n k = let c := search (length (n_inodes n)) (key_ge (n_inodes n) k) in
            if exact_at k (n_inodes n) c
            then {| n_leaf := n_leaf n; n_unbal := true; n_inodes := firstn c (n_inodes n) ++ skipn (S c) (n_inodes n) |}
            else n.
Proof.
  unfold del, exact_at. cbv zeta.
  destruct (nth_error (n_inodes n) (search (length (n_inodes n)) (key_ge (n_inodes n) k))) as [i|]; reflexivity.
Qed.

Theorem del_is_remove n k : keys_sorted (keys_of (n_inodes n)) = true -> n_inodes (del n k) = rem k (n_inodes n).
Proof.
  intros Hs. rewrite del_unfold. cbv zeta. rewrite (search_sorted _ k Hs).
  rewrite <- (del_list k (n_inodes n) Hs). cbv zeta. fold (below k). fold (pos_of k (n_inodes n)).
  destruct (exact_at k (n_inodes n) (pos_of k (n_inodes n))); reflexivity.
Qed.

Lemma rem_head_bound k0 k l :
  Forall (fun y => blt k0 (i_key y) = true) l -> Forall (fun y => blt k0 (i_key y) = true) (rem k l).
Proof.
  induction l as [|x r IH]; intros Hl; cbn [rem]; [constructor|].
  inversion Hl as [|? ? Hx Hr]; subst. destruct (bcmp k (i_key x)); [exact Hr | exact Hl | constructor; auto].
Qed.

Theorem rem_sorted k l : keys_sorted (keys_of l) = true -> keys_sorted (keys_of (rem k l)) = true.
Proof.
  fold (isorted l). fold (isorted (rem k l)).
  induction l as [|x r IH]; intros Hs; [reflexivity|]. cbn [rem].
  pose proof Hs as Hs0. apply isorted_cons in Hs. destruct Hs as [Hall Hs].
  destruct (bcmp k (i_key x)); [exact Hs | exact Hs0 |].
  apply isorted_cons. split; [apply rem_head_bound, Hall | apply IH, Hs].
Qed.

Lemma ilookup_above k l : Forall (fun y => blt k (i_key y) = true) l -> ilookup k l = None.
Proof.
  induction 1 as [|y l Hy _ IH]; [reflexivity|]. cbn [ilookup].
  destruct (beq (i_key y) k) eqn:E; [|exact IH]. apply beq_eq in E. rewrite E, blt_irrefl in Hy. discriminate.
Qed.

Theorem rem_lookup_same k l : keys_sorted (keys_of l) = true -> ilookup k (rem k l) = None.
Proof.
  fold (isorted l). induction l as [|x r IH]; intros Hs; [reflexivity|]. cbn [rem].
  pose proof (cmp_cases k x) as C.
  pose proof Hs as Hs0. apply isorted_cons in Hs. destruct Hs as [Hall Hs].
  destruct (bcmp k (i_key x)); destruct C as (B & Q & K).
  - apply ilookup_above. rewrite <- K. exact Hall.
  - apply ilookup_above, (below_head _ _ _ Hs0 K).
  - cbn [ilookup]. rewrite Q. apply IH, Hs.
Qed.

Theorem rem_lookup_other k k' l : keys_sorted (keys_of l) = true -> k' <> k -> ilookup k' (rem k l) = ilookup k' l.
Proof.
  fold (isorted l). intros Hs Hne. induction l as [|x r IH]; [reflexivity|]. cbn [rem].
  pose proof (cmp_cases k x) as C.
  apply isorted_cons in Hs. destruct Hs as [Hall Hs].
  destruct (bcmp k (i_key x)); destruct C as (B & Q & K).
  - cbn [ilookup]. rewrite K. now rewrite (proj2 (beq_false_iff k k') (not_eq_sym Hne)).
  - reflexivity.
  - cbn [ilookup]. now rewrite (IH Hs).
Qed.

Lemma existsb_ilookup k l : existsb (fun i => beq (i_key i) k) l = if ilookup k l then true else false.
Proof. induction l as [|x r IH]; [reflexivity|]. cbn [existsb ilookup]. now destruct (beq (i_key x) k). Qed.

Lemma exact_exists k l : isorted l -> exact_at k l (pos_of k l) = existsb (fun i => beq (i_key i) k) l.
Proof.
  induction l as [|x r IH]; intros Hs; [reflexivity|].
  pose proof (cmp_cases k x) as C. cbn [existsb].
  destruct (bcmp k (i_key x)); destruct C as (B & Q & K).
  - rewrite (pos_of_cons_ge _ _ _ Hs B). unfold exact_at. cbn [nth_error]. now rewrite Q.
  - rewrite (pos_of_cons_ge _ _ _ Hs B). unfold exact_at. cbn [nth_error]. rewrite Q. cbn [orb].
    now rewrite existsb_ilookup, (ilookup_above k r (Forall_inv_tail (below_head _ _ _ Hs K))).
  - rewrite (pos_of_cons_lt _ _ _ B). apply isorted_cons in Hs. rewrite Q. cbn [orb]. exact (IH (proj2 Hs)).
Qed.

Theorem del_unbalanced_iff n k : keys_sorted (keys_of (n_inodes n)) = true ->
  n_unbal (del n k) = n_unbal n || existsb (fun i => beq (i_key i) k) (n_inodes n).
Proof.
  intros Hs. rewrite del_unfold. cbv zeta. rewrite (search_sorted _ k Hs).
  fold (below k). fold (pos_of k (n_inodes n)). rewrite <- (exact_exists k _ Hs).
  destruct (exact_at k (n_inodes n) (pos_of k (n_inodes n))); cbn [n_unbal]; [now rewrite orb_true_r | now rewrite orb_false_r].
Qed.

Theorem put_panics_iff mark n ok nk v pg fl :
  put mark n ok nk v pg fl = Panic <-> (mark <= pg \/ len ok = 0 \/ len nk = 0).
Proof.
  unfold put. destruct (N.leb_spec mark pg); [split; [intros _; left; assumption | reflexivity]|].
  destruct (N.eqb_spec (len ok) 0); [split; [intros _; right; left; assumption | reflexivity]|].
  destruct (N.eqb_spec (len nk) 0); [split; [intros _; right; right; assumption | reflexivity]|].
  split; [discriminate | lia].
Qed.

Theorem put_never_out_of_fuel mark n ok nk v pg fl : put mark n ok nk v pg fl <> OutOfFuel.
Proof.
  unfold put. destruct (mark <=? pg); [discriminate|]. destruct (len ok =? 0); [discriminate|].
  destruct (len nk =? 0); discriminate.
Qed.

Lemma size_fold_ge leaf l : forall sz, sz <= fold_left (fun s i => s + isz leaf i) l sz.
Proof.
  induction l as [|x r IH]; intros sz; cbn [fold_left]; [lia|].
  specialize (IH (sz + isz leaf x)). lia.
Qed.

Lemma slt_loop_spec leaf v l : forall sz,
  slt_loop leaf v sz l = true <-> (l = [] \/ fold_left (fun s i => s + isz leaf i) l sz < v).
Proof.
  induction l as [|x r IH]; intros sz; cbn [slt_loop fold_left].
  - split; [intros _; left; reflexivity | reflexivity].
  - cbv zeta. pose proof (size_fold_ge leaf r (sz + isz leaf x)) as G.
    destruct (N.leb_spec v (sz + isz leaf x)) as [H|H].
    + split; [discriminate | intros [E|E]; [discriminate | lia]].
    + rewrite IH. split.
      * intros [E|E]; right; [subst r; cbn [fold_left]; exact H | exact E].
      * intros [E|E]; [discriminate | right; exact E].
Qed.

Theorem size_less_than_spec n v : size_less_than n v = true <-> (n_inodes n = [] \/ size n < v).
Proof. unfold size_less_than, size, size_of. apply slt_loop_spec. Qed.

Lemma split_index_loop_bounds leaf thr : forall cnt l i index sz,
  (cnt <= length l)%nat ->
  let r := fst (split_index_loop leaf thr l i cnt index sz) in
  r = match cnt with O => index | S c => (i + c)%nat end \/ (2 <= r /\ i <= r < i + cnt)%nat.
Proof.
  induction cnt as [|c IH]; intros l i index sz Hc; cbv zeta; [left; now destruct l|].
  destruct l as [|x l]; [cbn in Hc; lia|]. cbn [split_index_loop]. cbv zeta.
  destruct ((2 <=? i)%nat && (thr <? sz + isz leaf x)) eqn:T.
  - right. cbn [fst]. apply andb_true_iff in T. destruct T as [T _]. apply Nat.leb_le in T. lia.
  - destruct (IH l (S i) i (sz + isz leaf x)) as [E|E]; [cbn in Hc; lia | left; rewrite E; destruct c; lia | right; lia].
Qed.

Lemma split_index_bounds leaf thr l : (4 < length l)%nat ->
  (2 <= fst (split_index leaf thr l) <= length l - 3)%nat.
Proof.
  intros H. unfold split_index.
  destruct (split_index_loop_bounds leaf thr (length l - 2) l 0 0 page_header_size) as [E|E]; [lia | | lia].
  rewrite E. destruct (length l - 2)%nat eqn:C; lia.
Qed.

Lemma split_two_some leaf ps p l a b : split_two leaf ps p l = Some (a, b) ->
  a ++ b = l /\ (2 <= length a)%nat /\ (3 <= length b)%nat /\ (length b < length l)%nat.
Proof.
  unfold split_two. destruct (Nat.leb_spec (length l) 4) as [H|H]; [discriminate|]. cbn [orb].
  destruct (slt_loop leaf ps page_header_size l); [discriminate|].
  intros E. inversion E; subst. clear E.
  pose proof (split_index_bounds leaf (split_threshold ps p) l H) as B.
  set (idx := fst (split_index leaf (split_threshold ps p) l)) in *.
  split; [apply firstn_skipn|]. rewrite firstn_length, skipn_length. lia.
Qed.

Lemma split_two_none leaf ps p l : split_two leaf ps p l = None <->
  ((length l <= 4)%nat \/ slt_loop leaf ps page_header_size l = true).
Proof.
  unfold split_two. destruct (Nat.leb_spec (length l) 4) as [H|H]; cbn [orb].
  - split; [left; exact H | reflexivity].
  - destruct (slt_loop leaf ps page_header_size l); split; try reflexivity; try discriminate.
    + right; reflexivity.
    + intros [X|X]; [lia | discriminate].
Qed.

Lemma split_loop_total leaf ps p : forall fuel l, (length l < fuel)%nat -> exists pieces, split_loop fuel leaf ps p l = Ok pieces.
Proof.
  induction fuel as [|f IH]; intros l Hf; [lia|]. cbn [split_loop].
  destruct (split_two leaf ps p l) as [[a b]|] eqn:E; [|eexists; reflexivity].
  apply split_two_some in E. destruct E as (_ & _ & _ & Hb).
  destruct (IH b ltac:(lia)) as [r Hr]. rewrite Hr. cbn [bindr]. eexists; reflexivity.
Qed.

Theorem split_total n ps p : exists pieces, split n ps p = Ok pieces.
Proof. unfold split. apply split_loop_total. lia. Qed.

(** the result of the loop: the pieces in order, all but the last cut off by [split_two] (so of two elements or
    more), the last either the whole list or a remainder of three or more *)
Lemma split_loop_props leaf ps p : forall fuel l pieces, split_loop fuel leaf ps p l = Ok pieces ->
  concat pieces = l /\ pieces <> [] /\
  Forall (fun q => 2 <= length q)%nat (removelast pieces) /\
  (pieces = [l] \/ (3 <= length (last pieces []))%nat).
Proof.
  induction fuel as [|f IH]; intros l pieces H; [discriminate|]. cbn [split_loop] in H.
  destruct (split_two leaf ps p l) as [[a b]|] eqn:E.
  - apply split_two_some in E. destruct E as (Eab & Ha & Hb & _).
    destruct (split_loop f leaf ps p b) as [r| |] eqn:R; try discriminate. injection H as <-.
    destruct (IH b r R) as (I1 & I2 & I3 & I4).
    split; [cbn [concat]; rewrite I1; exact Eab|]. split; [discriminate|]. destruct r as [|q r]; [contradiction|].
    change (removelast (a :: q :: r)) with (a :: removelast (q :: r)). change (last (a :: q :: r) []) with (last (q :: r) []).
    split; [constructor; [exact Ha | exact I3]|]. right. destruct I4 as [->|I4]; [exact Hb | exact I4].
  - injection H as <-. cbn [concat removelast]. rewrite app_nil_r. repeat split; [discriminate | constructor | now left].
Qed.

Lemma split_loop_all (P : list inode -> Prop) leaf ps p fuel l pieces : split_loop fuel leaf ps p l = Ok pieces ->
  P l -> (forall q, (2 <= length q)%nat -> P q) -> Forall P pieces.
Proof.
  intros H Pl P2. destruct (split_loop_props _ _ _ _ _ _ H) as (_ & Hne & Hfront & Hlast).
  rewrite (app_removelast_last [] Hne). apply Forall_app. split; [exact (Forall_impl _ P2 Hfront)|].
  constructor; [|constructor]. destruct Hlast as [->|Hlast]; [exact Pl | apply P2; lia].
Qed.

Theorem split_concat n ps p pieces : split n ps p = Ok pieces -> concat pieces = n_inodes n.
Proof. unfold split. intros H. apply (split_loop_props _ _ _ _ _ _ H). Qed.

Theorem split_nonempty n ps p pieces : split n ps p = Ok pieces -> n_inodes n <> [] -> Forall (fun q => q <> []) pieces.
Proof.
  unfold split. intros H Hn. apply (split_loop_all _ _ _ _ _ _ _ H Hn). intros [|] Hq; [cbn in Hq; lia | discriminate].
Qed.

Theorem split_nonlast_ge2 n ps p pieces : split n ps p = Ok pieces -> Forall (fun q => 2 <= length q)%nat (removelast pieces).
Proof. unfold split. intros H. apply (split_loop_props _ _ _ _ _ _ H). Qed.

(** every piece, the last included, has two elements as soon as the node has two *)
Theorem split_all_ge2 n ps p pieces : split n ps p = Ok pieces -> (2 <= length (n_inodes n))%nat ->
  Forall (fun q => 2 <= length q)%nat pieces.
Proof. unfold split. intros H Hl. apply (split_loop_all _ _ _ _ _ _ _ H Hl). auto. Qed.

(** in particular for every node that can be split at all: up to four elements never are ([split_small]) *)
Theorem split_last_ge2 n ps p pieces : split n ps p = Ok pieces -> (4 < length (n_inodes n))%nat ->
  Forall (fun q => 2 <= length q)%nat pieces.
Proof. intros H Hl. apply (split_all_ge2 n ps p pieces H). lia. Qed.

Theorem split_last_ge3 n ps p pieces : split n ps p = Ok pieces -> pieces <> [n_inodes n] ->
  (3 <= length (last pieces []))%nat.
Proof. unfold split. intros H N. destruct (split_loop_props _ _ _ _ _ _ H) as (_ & _ & _ & [E|L]); [contradiction | exact L]. Qed.

Lemma split_unsplit n ps p : split_two (n_leaf n) ps p (n_inodes n) = None -> split n ps p = Ok [n_inodes n].
Proof. intros E. unfold split. cbn [split_loop]. now rewrite E. Qed.

Theorem split_fits n ps p : size n < ps -> split n ps p = Ok [n_inodes n].
Proof. intros H. apply split_unsplit, split_two_none. right. apply size_less_than_spec. now right. Qed.

Theorem split_small n ps p : (length (n_inodes n) <= 4)%nat -> split n ps p = Ok [n_inodes n].
Proof. intros H. apply split_unsplit, split_two_none. now left. Qed.

Lemma keys_of_concat pieces : concat (map keys_of pieces) = keys_of (concat pieces).
Proof.
  induction pieces as [|q r IH]; [reflexivity|]. cbn [map concat]. unfold keys_of in *. now rewrite map_app, IH.
Qed.

Theorem split_ok_model n ps p pieces : split n ps p = Ok pieces -> split_ok (n_inodes n) pieces = true.
Proof.
  intros H. pose proof (split_concat _ _ _ _ H) as P1. pose proof (split_nonempty _ _ _ _ H) as P3.
  pose proof (split_nonlast_ge2 _ _ _ _ H) as P4.
  unfold split_ok. cbv zeta. rewrite keys_of_concat, P1.
  destruct (list_eq_dec (list_eq_dec N.eq_dec) (keys_of (n_inodes n)) (keys_of (n_inodes n))) as [_|X]; [|contradiction].
  cbn [andb]. apply andb_true_iff. split.
  - destruct (n_inodes n) as [|x l] eqn:El; [reflexivity|].
    apply forallb_forall. intros q Hq. specialize (P3 ltac:(discriminate)). rewrite Forall_forall in P3.
    specialize (P3 q Hq). destruct q; [contradiction | reflexivity].
  - apply forallb_forall. intros q Hq. rewrite Forall_forall in P4. apply Nat.leb_le. apply P4. exact Hq.
Qed.

Theorem split_ok_sound l pieces : split_ok l pieces = true ->
  concat (map keys_of pieces) = keys_of l /\ (l <> [] -> Forall (fun q => q <> []) pieces) /\
  Forall (fun q => 2 <= length q)%nat (removelast pieces).
Proof.
  unfold split_ok. cbv zeta. intros H. apply andb_true_iff in H. destruct H as [H H3].
  apply andb_true_iff in H. destruct H as [H1 H2].
  split; [|split].
  - destruct (list_eq_dec (list_eq_dec N.eq_dec) (concat (map keys_of pieces)) (keys_of l)); [assumption | discriminate].
  - intros Hl. destruct l as [|x l]; [contradiction|]. apply Forall_forall. intros q Hq.
    rewrite forallb_forall in H2. specialize (H2 q Hq). destruct q; [discriminate | discriminate].
  - apply Forall_forall. intros q Hq. rewrite forallb_forall in H3. apply Nat.leb_le. apply H3. exact Hq.
Qed.

(** the three assertions of node.write *)
Definition write_refused (n : node) (pg : N) : bool :=
  (65535 <=? N.of_nat (length (n_inodes n))) || existsb (fun x => len (i_key x) =? 0) (n_inodes n)
  || negb (n_leaf n) && existsb (fun x => i_pgid x =? pg) (n_inodes n).

Lemma write_eq n pg ov :
  write n pg ov =
  if write_refused n pg then Panic
  else Ok (enc_header pg (if n_leaf n then leaf_page_flag else branch_page_flag) (N.of_nat (length (n_inodes n))) ov
           ++ enc_elems (n_leaf n) 0 (n_inodes n) ++ enc_data (n_inodes n)).
Proof.
  unfold write, write_refused. cbv zeta.
  destruct (65535 <=? _); [reflexivity|]. destruct (existsb _ _); [reflexivity|]. now destruct (negb _ && _).
Qed.

Lemma write_ok_inv n pg ov bytes : write n pg ov = Ok bytes ->
  bytes = enc_page_header pg (if n_leaf n then leaf_page_flag else branch_page_flag) (N.of_nat (length (n_inodes n))) ov
          ++ enc_elems (n_leaf n) 0 (n_inodes n) ++ enc_data (n_inodes n).
Proof. rewrite write_eq, enc_header_eq. destruct (write_refused n pg); [discriminate | now intros [= <-]]. Qed.

Lemma write_ok_count n pg ov bytes : write n pg ov = Ok bytes -> N.of_nat (length (n_inodes n)) < 65535.
Proof. rewrite write_eq. unfold write_refused. destruct (N.leb_spec 65535 (N.of_nat (length (n_inodes n)))); [discriminate | trivial]. Qed.

Theorem write_leaf_is_spec n pg ov : n_leaf n = true -> Forall (fun x => i_flags x = 0) (n_inodes n) ->
  forall bytes, write n pg ov = Ok bytes ->
  bytes = enc_leaf_page_ov pg ov (map (fun x => (i_key x, i_val x)) (n_inodes n)).
Proof.
  intros Hl Hf bytes H. apply write_ok_inv in H. rewrite Hl in H. subst bytes.
  unfold enc_leaf_page_ov. rewrite map_length, (enc_elems_leaf_spec _ 0 Hf), enc_data_leaf_spec. reflexivity.
Qed.

Theorem write_branch_is_spec n pg ov : n_leaf n = false -> Forall (fun x => i_val x = []) (n_inodes n) ->
  forall bytes, write n pg ov = Ok bytes ->
  bytes = enc_branch_page pg ov (map (fun x => (i_key x, i_pgid x)) (n_inodes n)).
Proof.
  intros Hl Hf bytes H. apply write_ok_inv in H. rewrite Hl in H. subst bytes.
  unfold enc_branch_page. rewrite map_length, (enc_elems_branch_spec _ 0 Hf), (enc_data_branch_spec _ Hf). reflexivity.
Qed.

Theorem write_panics_iff n pg ov :
  write n pg ov = Panic <->
  (65535 <= N.of_nat (length (n_inodes n)) \/
   (exists x, In x (n_inodes n) /\ len (i_key x) = 0) \/
   (n_leaf n = false /\ exists x, In x (n_inodes n) /\ i_pgid x = pg)).
Proof.
  rewrite write_eq. transitivity (write_refused n pg = true); [now destruct (write_refused n pg)|].
  unfold write_refused. rewrite !orb_true_iff, andb_true_iff, negb_true_iff, N.leb_le, !existsb_exists.
  setoid_rewrite N.eqb_eq. apply or_assoc.
Qed.

Theorem write_never_out_of_fuel n pg ov : write n pg ov <> OutOfFuel.
Proof. rewrite write_eq. now destruct (write_refused n pg). Qed.

Lemma size_total n : size n = 16 + 16 * N.of_nat (length (n_inodes n)) + data_total (n_inodes n).
Proof.
  unfold size, size_of. change page_header_size with 16.
  enough (G : forall l sz, fold_left (fun s i => s + isz (n_leaf n) i) l sz = sz + 16 * N.of_nat (length l) + data_total l)
    by apply G.
  induction l as [|x r IH]; intros sz; cbn [fold_left length data_total]; [lia|].
  rewrite IH. unfold isz, elsz. change leaf_elem_size with 16. change branch_elem_size with 16.
  destruct (n_leaf n); lia.
Qed.

Theorem write_length n pg ov bytes : write n pg ov = Ok bytes -> N.of_nat (length bytes) = size n.
Proof.
  intros H. apply write_ok_inv in H. subst bytes. rewrite size_total. apply image_length.
Qed.

(** the per-field hypotheses of the round trip.  [write_read_roundtrip] needs [size n < 2^32] besides them: the element
    header stores the distance to the key in a uint32 ([pos]), and the per-field bounds (every key and value shorter
    than 2^32, fewer than 65535 elements) do not bound it - two values of 2^31 bytes each already push the second [pos]
    past 2^32, where [enc_le 4] (like Go's uint32 conversion) truncates and the reader looks in the wrong place: see
    [roundtrip_needs_size_bound] below for the checked counterexample. *)
Definition node_wf (n : node) : Prop :=
  Forall (fun x => 0 < len (i_key x) < 2^32 /\ len (i_val x) < 2^32 /\ i_flags x < 2^32 /\ i_pgid x < 2^64) (n_inodes n) /\
  (if n_leaf n then Forall (fun x => i_pgid x = 0) (n_inodes n)
   else Forall (fun x => i_flags x = 0 /\ i_val x = []) (n_inodes n)).

Lemma read_elem rd leaf b l l1 x l2 :
  has_bytes rd (b + 16) (enc_elems leaf 0 l ++ enc_data l) -> l = l1 ++ x :: l2 ->
  16 * N.of_nat (length l) + data_total l < 2^32 ->
  (if leaf then i_flags x < 2^32 /\ i_pgid x = 0 else i_pgid x < 2^64 /\ i_flags x = 0 /\ i_val x = []) ->
  (if leaf then read_leaf_elem rd b (N.of_nat (length l1)) else read_branch_elem rd b (N.of_nat (length l1))) = x.
Proof.
  intros WE E Hb Hx. destruct (elem_at rd leaf (b + 16) l l1 x l2 WE E Hb) as (WK & _ & U).
  apply key_val_read in WK as [K V]. destruct x as [xf xk xv xp]. cbn [i_flags i_key i_val i_pgid] in *.
  destruct leaf.
  - destruct U as (U1 & U2 & U3 & U4), Hx as [Hf ->]. unfold read_leaf_elem. cbv zeta.
    now rewrite (U1 Hf), U3, U4, U2, K, V.
  - destruct U as (U1 & U2 & U3), Hx as (Hp & -> & ->). unfold read_branch_elem. cbv zeta.
    now rewrite U2, U1, K, (U3 Hp).
Qed.

Lemma read_image rd b pg ov (leaf : bool) l :
  has_bytes rd b (enc_page_header pg (if leaf then leaf_page_flag else branch_page_flag) (N.of_nat (length l)) ov
                  ++ enc_elems leaf 0 l ++ enc_data l) ->
  N.of_nat (length l) < 65535 -> 16 + 16 * N.of_nat (length l) + data_total l < 2^32 ->
  Forall (fun x => 0 < len (i_key x) /\
                   if leaf then i_flags x < 2^32 /\ i_pgid x = 0 else i_pgid x < 2^64 /\ i_flags x = 0 /\ i_val x = []) l ->
  read rd b = Ok {| n_leaf := leaf; n_unbal := false; n_inodes := l |}.
Proof.
  intros W Hc Hsz Hw. rewrite Forall_forall in Hw.
  destruct (page_header_read _ _ _ _ _ _ _ W) as (_ & Efl & Ecnt & _ & WE).
  assert (Hfl : (if leaf then leaf_page_flag else branch_page_flag) < 2^16) by now destruct leaf.
  unfold read. cbv zeta. rewrite (Efl Hfl), (Ecnt ltac:(lia)).
  replace (_ =? leaf_page_flag) with leaf by now destruct leaf.
  change (run 0 (N.of_nat ?c)) with (idxs (N.of_nat c)). rewrite idxs_of_nat, map_idx with (l := l).
  - destruct (existsb _ l) eqn:X; [|reflexivity]. apply existsb_exists in X as (x & Hx & E).
    apply N.eqb_eq in E. specialize (Hw x Hx). lia.
  - intros l1 x l2 E. apply (read_elem rd leaf b l l1 x l2 WE E); [lia|]. apply Hw. rewrite E. apply in_elt.
Qed.

Theorem write_read_roundtrip n pg ov pre post bytes :
  node_wf n -> pg < 2^64 -> ov < 2^32 -> N.of_nat (length (n_inodes n)) < 65535 ->
  size n < 2^32 ->
  write n pg ov = Ok bytes ->
  read (rd_of (pre ++ bytes ++ post)) (N.of_nat (length pre)) =
  Ok {| n_leaf := n_leaf n; n_unbal := false; n_inodes := n_inodes n |}.
Proof.
  intros [Hw Hk] _ _ Hc Hsz H. apply write_ok_inv in H. subst bytes. rewrite size_total in Hsz.
  apply (read_image _ _ pg ov); [apply has_bytes_rd_of | exact Hc | exact Hsz |].
  rewrite Forall_forall in *. intros x Hx. specialize (Hw x Hx).
  destruct (n_leaf n); rewrite Forall_forall in Hk; specialize (Hk x Hx); tauto.
Qed.

(** ** without [size n < 2^32] the round trip is false: a kernel-checked counterexample.
    A leaf with two elements, the first carrying a value of 2^32 - 1 bytes: every per-field bound holds, [write]
    succeeds, but the second element's [pos] is 16 + 2^32, stored as 16, so [read] returns the FIRST key for the
    second element.  ([m] stays abstract in the computation, so nothing of size 2^32 is ever built.) *)
Definition cex_node (m : nat) : node :=
  {| n_leaf := true; n_unbal := false;
     n_inodes := [ {| i_flags := 0; i_key := [1]; i_val := repeat 0 m; i_pgid := 0 |};
                   {| i_flags := 0; i_key := [2]; i_val := []; i_pgid := 0 |} ] |}.

Lemma cex_bytes m : N.of_nat m = 2^32 - 1 ->
  write (cex_node m) 3 0 =
  Ok ([3;0;0;0;0;0;0;0; 2;0; 2;0; 0;0;0;0;
       0;0;0;0; 32;0;0;0; 1;0;0;0; 255;255;255;255;
       0;0;0;0; 16;0;0;0; 1;0;0;0; 0;0;0;0] ++ 1 :: repeat 0 m ++ [2]).
Proof.
  intros Hm. unfold write, cex_node. cbn [n_inodes n_leaf length existsb i_key i_pgid negb andb orb].
  change (65535 <=? N.of_nat 2) with false. change (len [1] =? 0) with false. change (len [2] =? 0) with false.
  cbn [orb]. cbv iota. f_equal.
  unfold enc_header, enc_data. cbn [enc_elems flat_map i_flags i_key i_val length app].
  unfold len. cbn [length]. rewrite repeat_length, Hm.
  vm_compute. reflexivity.
Qed.

Lemma cex_read_fails m bytes : N.of_nat m = 2^32 - 1 -> write (cex_node m) 3 0 = Ok bytes ->
  read (rd_of bytes) 0 <> Ok (cex_node m).
Proof.
  intros Hm W. rewrite (cex_bytes m Hm) in W. injection W as <-.
  match goal with |- read (rd_of ?L) 0 <> _ => set (rd := rd_of L) end.
  assert (F : u16 rd (0 + 8) = 2) by (vm_compute; reflexivity).
  assert (C : u16 rd (0 + 10) = 2) by (vm_compute; reflexivity).
  assert (K : i_key (read_leaf_elem rd 0 1) = [1]) by (vm_compute; reflexivity).
  unfold read. cbv zeta. rewrite F, C. change (2 =? leaf_page_flag) with true. cbv iota.
  change (run 0 2) with [0; 1]. cbn [map].
  match goal with |- (if ?b then _ else _) <> _ => destruct b end; [discriminate|].
  intros R. apply (f_equal (fun r => match r with Ok n => map i_key (n_inodes n) | _ => [] end)) in R.
  cbn [n_inodes cex_node map] in R. apply (f_equal (fun l => nth 1 l [])) in R. cbn [nth] in R. rewrite K in R. discriminate.
Qed.

Theorem roundtrip_needs_size_bound :
  exists n pg ov bytes,
    (Forall (fun x => 0 < len (i_key x) < 2^32 /\ len (i_val x) < 2^32 /\ i_flags x < 2^32 /\ i_pgid x < 2^64) (n_inodes n) /\
     n_leaf n = true /\ Forall (fun x => i_pgid x = 0) (n_inodes n)) /\
    pg < 2^64 /\ ov < 2^32 /\ N.of_nat (length (n_inodes n)) < 65535 /\
    write n pg ov = Ok bytes /\
    read (rd_of ([] ++ bytes ++ [])) (N.of_nat (length (@nil N))) <> Ok {| n_leaf := n_leaf n; n_unbal := false; n_inodes := n_inodes n |}.
Proof.
  assert (exists m, N.of_nat m = 2^32 - 1) as [m Hm] by (exists (N.to_nat (2^32 - 1)); apply N2Nat.id).
  exists (cex_node m), 3, 0. eexists.
  split; [|split; [reflexivity | split; [reflexivity | split; [reflexivity | split; [apply (cex_bytes m Hm)|]]]]].
  - split; [|split; [reflexivity | repeat constructor]].
    constructor; [|repeat constructor].
    cbn [i_key i_val i_flags i_pgid]. unfold len. rewrite repeat_length, Hm. repeat split.
  - cbn [app length N.of_nat]. rewrite app_nil_r. apply (cex_read_fails m _ Hm). apply (cex_bytes m Hm).
Qed.

(** the truncation behind the hypothesis [size n < 2^32] of [write_read_roundtrip]: the stored [pos] of an element that follows
    2^32 bytes of key/value data is byte-for-byte the one of an element that follows none *)
Example pos_field_truncates : enc_le 4 (16 * 1 + 2^32) = enc_le 4 (16 * 1 + 0).
Proof. vm_compute. reflexivity. Qed.

(** * the hypotheses are satisfiable: a 7-element leaf with 300-byte values *)
Definition ex_inode (k : N) : inode := {| i_flags := 0; i_key := [k]; i_val := repeat k 300; i_pgid := 0 |}.
Definition ex_node : node := {| n_leaf := true; n_unbal := false; n_inodes := map ex_inode [1; 2; 3; 5; 6; 7; 8] |}.
Definition ex_branch : node :=
  {| n_leaf := false; n_unbal := false;
     n_inodes := map (fun k => {| i_flags := 0; i_key := [k; k]; i_val := []; i_pgid := 10 + k |}) [1; 2; 3; 5; 6] |}.

Example ex_sorted : keys_sorted (keys_of (n_inodes ex_node)) = true.
Proof. vm_compute. reflexivity. Qed.
Example ex_search_absent : search 7 (key_ge (n_inodes ex_node) [4]) = 3%nat.
Proof. vm_compute. reflexivity. Qed.
Example ex_search_present : search 7 (key_ge (n_inodes ex_node) [5]) = 3%nat.
Proof. vm_compute. reflexivity. Qed.
Example ex_search_past_end : search 7 (key_ge (n_inodes ex_node) [9]) = 7%nat.
Proof. vm_compute. reflexivity. Qed.
Example ex_put_new : match put 100 ex_node [4] [4] [42] 0 0 with
                     | Ok n' => keys_of (n_inodes n') = [[1]; [2]; [3]; [4]; [5]; [6]; [7]; [8]] | _ => False end.
Proof. vm_compute. reflexivity. Qed.
Example ex_put_replace : match put 100 ex_node [5] [5] [42] 0 0 with
                         | Ok n' => keys_of (n_inodes n') = keys_of (n_inodes ex_node)
                                    /\ ilookup [5] (n_inodes n') = Some {| i_flags := 0; i_key := [5]; i_val := [42]; i_pgid := 0 |}
                         | _ => False end.
Proof. vm_compute. split; reflexivity. Qed.
Example ex_del : keys_of (n_inodes (del ex_node [5])) = [[1]; [2]; [3]; [6]; [7]; [8]] /\ n_unbal (del ex_node [5]) = true
                 /\ del ex_node [4] = ex_node.
Proof. repeat split. Qed.
Example ex_size : size ex_node = 2235 /\ size_less_than ex_node 2235 = false /\ size_less_than ex_node 2236 = true.
Proof. vm_compute. repeat split; reflexivity. Qed.
(** page size 1024: three pieces at the default fill percentage, two at 100 percent *)
Example ex_split_3 : match split ex_node 1024 50 with
                     | Ok pieces => map (@length inode) pieces = [2; 2; 3]%nat /\ split_ok (n_inodes ex_node) pieces = true
                     | _ => False end.
Proof. vm_compute. split; reflexivity. Qed.
Example ex_split_2 : match split ex_node 1024 100 with
                     | Ok pieces => map (@length inode) pieces = [3; 4]%nat /\ split_ok (n_inodes ex_node) pieces = true
                     | _ => False end.
Proof. vm_compute. split; reflexivity. Qed.
Example ex_split_none : split ex_node 4096 50 = Ok [n_inodes ex_node].
Proof. apply split_fits. reflexivity. Qed.

Example ex_wf : node_wf ex_node /\ node_wf ex_branch.
Proof. split; (split; [|cbn [n_leaf ex_node ex_branch]]); repeat constructor. Qed.
Example ex_write_leaf : write ex_node 3 0 = Ok (enc_leaf_page_ov 3 0 (map (fun x => (i_key x, i_val x)) (n_inodes ex_node))).
Proof.
  destruct (write ex_node 3 0) as [b| |] eqn:W; try discriminate W.
  f_equal. apply (write_leaf_is_spec ex_node 3 0 eq_refl); [repeat constructor | exact W].
Qed.
Example ex_write_branch : write ex_branch 4 1 = Ok (enc_branch_page 4 1 (map (fun x => (i_key x, i_pgid x)) (n_inodes ex_branch))).
Proof. vm_compute. reflexivity. Qed.
Example ex_write_panics : write ex_branch 13 0 = Panic.      (* element 3 points at page 13 itself *)
Proof. vm_compute. reflexivity. Qed.
Example ex_roundtrip_leaf : match write ex_node 3 0 with
                            | Ok bytes => read (rd_of ([9; 9; 9] ++ bytes ++ [7; 7])) 3 = Ok ex_node | _ => False end.
Proof.
  rewrite ex_write_leaf.
  apply (write_read_roundtrip ex_node 3 0 [9; 9; 9] [7; 7]); [apply ex_wf | reflexivity.. | apply ex_write_leaf].
Qed.
Example ex_roundtrip_branch : match write ex_branch 4 1 with
                              | Ok bytes => read (rd_of ([9; 9; 9] ++ bytes ++ [7; 7])) 3 = Ok ex_branch | _ => False end.
Proof. vm_compute. reflexivity. Qed.

Print Assumptions search_spec.
Print Assumptions search_least.
Print Assumptions search_sorted.
Print Assumptions put_is_insert.
Print Assumptions ins_sorted.
Print Assumptions ins_lookup_same.
Print Assumptions ins_lookup_other.
Print Assumptions del_is_remove.
Print Assumptions rem_sorted.
Print Assumptions rem_lookup_same.
Print Assumptions rem_lookup_other.
Print Assumptions del_unbalanced_iff.
Print Assumptions put_panics_iff.
Print Assumptions put_never_out_of_fuel.
Print Assumptions size_less_than_spec.
Print Assumptions split_total.
Print Assumptions split_concat.
Print Assumptions split_nonempty.
Print Assumptions split_nonlast_ge2.
Print Assumptions split_all_ge2.
Print Assumptions split_last_ge2.
Print Assumptions split_last_ge3.
Print Assumptions split_fits.
Print Assumptions split_small.
Print Assumptions split_ok_model.
Print Assumptions split_ok_sound.
Print Assumptions write_leaf_is_spec.
Print Assumptions write_branch_is_spec.
Print Assumptions write_panics_iff.
Print Assumptions write_never_out_of_fuel.
Print Assumptions write_length.
Print Assumptions write_read_roundtrip.
Print Assumptions roundtrip_needs_size_bound.
