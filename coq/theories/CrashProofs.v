(** C01: a crash at any point of a commit, with any fate of the un-synced writes, recovers the previous committed
    state or - only once its meta page was completely persisted - the new one; never a mixture. *)
From Bbolt Require Import Base Crash.

Lemma plookup_notin p l : (forall c, ~ In (p, c) l) -> plookup p l = None.
Proof.
  induction l as [|[q c] l IH]; intros H; [reflexivity|]. simpl.
  destruct (N.eqb_spec p q) as [->|]; [exfalso; apply (H c); left; reflexivity|]. apply IH. intros c' Hc. apply (H c'). right; exact Hc.
Qed.

Lemma data_writes_frame A T : forall ss i,
  let i' := apply_sel i (map (fun q => WData q T) A) ss in
  i_m0 i' = i_m0 i /\ i_m1 i' = i_m1 i /\ forall p, ~ In p A -> page_content i' p = page_content i p.
Proof.
  induction A as [|a A IH]; intros ss i; simpl; [destruct ss; auto|].
  destruct ss as [|s ss]; [auto|].
  destruct (IH ss (apply_wr i (WData a T) s)) as (E0 & E1 & E). rewrite E0, E1.
  split; [destruct s; reflexivity|]. split; [destruct s; reflexivity|].
  intros p Hn. rewrite E by tauto. unfold page_content.
  destruct s; simpl; auto; destruct (N.eqb_spec p a) as [->|]; tauto.
Qed.

Lemma fold_full_sel ws : forall i,
  fold_left (fun i w => apply_wr i w Full) ws i = apply_sel i ws (repeat Full (length ws)).
Proof. induction ws as [|w ws IH]; intros i; simpl; [reflexivity | apply IH]. Qed.

Lemma full_data_written A T : forall i p, In p A ->
  page_content (apply_sel i (map (fun q => WData q T) A) (repeat Full (length A))) p = Some (Some T).
Proof.
  induction A as [|a A IH]; intros i p Hp; [destruct Hp|]. destruct Hp as [<-|Hp]; simpl; [|apply IH, Hp].
  destruct (in_dec N.eq_dec a A) as [Hin|Hn]; [apply IH, Hin|].
  rewrite (proj2 (proj2 (data_writes_frame A T _ _)) a Hn). unfold page_content. simpl. now rewrite N.eqb_refl.
Qed.

Lemma run_ev_writes ws : forall d pend r, run_ev d pend (map EW ws ++ r) = run_ev d (pend ++ ws) r.
Proof.
  induction ws as [|w ws IH]; intros d pend r; simpl; [now rewrite app_nil_r|]. rewrite IH, <- app_assoc. reflexivity.
Qed.

(** what recovery may find, for a previous committed txid [t] and an in-flight txid [T = t+1] *)
Definition outcome (d i : img) (t T : N) (A : list N) : Prop :=
  (recover i = Some t /\ (forall p, ~ In p A -> page_content i p = page_content d p)) \/
  (recover i = Some T /\ (forall p, In p A -> page_content i p = Some (Some T)) /\
                         (forall p, ~ In p A -> page_content i p = page_content d p)).

Lemma recover_old d t : at_rest d t -> recover d = Some t.
Proof.
  unfold at_rest, recover.
  destruct (N.odd t); intros [E H]; rewrite E; [destruct (i_m0 d) as [x|] | destruct (i_m1 d) as [x|]];
    try reflexivity; specialize (H x eq_refl); f_equal; lia.
Qed.

Lemma at_rest_metas i j t : i_m0 j = i_m0 i -> i_m1 j = i_m1 i -> at_rest i t -> at_rest j t.
Proof. unfold at_rest. intros -> ->. exact (fun H => H). Qed.

Lemma odd_next t : N.odd (t + 1) = negb (N.odd t).
Proof. rewrite N.add_1_r, N.odd_succ, <- N.negb_odd. reflexivity. Qed.

(** the in-flight meta goes to the slot that does NOT hold the committed meta: persisted in full, it is the newest
    valid meta *)
Lemma meta_full_at_rest d t : at_rest d t -> at_rest (apply_wr d (WMeta (N.odd (t + 1)) (t + 1)) Full) (t + 1).
Proof.
  unfold at_rest. rewrite !odd_next.
  destruct (N.odd t); simpl; intros [E H]; (split; [reflexivity|]); intros x Hx; rewrite E in Hx; inversion Hx; lia.
Qed.

(** lost or torn, it leaves the other slot as it was: recovery still sees the old txid *)
Lemma meta_write_outcomes d t s : at_rest d t ->
  recover (apply_wr d (WMeta (N.odd (t + 1)) (t + 1)) s) = Some match s with Full => t + 1 | _ => t end.
Proof.
  intros H. pose proof (recover_old d t H) as R.
  destruct s; [exact R | exact (recover_old _ _ (meta_full_at_rest d t H)) |].
  unfold at_rest in H. unfold recover. rewrite odd_next.
  destruct (N.odd t); destruct H as [E _]; simpl; rewrite E; reflexivity.
Qed.

Lemma recover_metas i j : i_m0 i = i_m0 j -> i_m1 i = i_m1 j -> recover i = recover j.
Proof. unfold recover. intros -> ->. reflexivity. Qed.

(** the fate of the meta write, [j >= 1] events after the last data write: not yet issued, un-synced, synced *)
Definition meta_fate (j : nat) (ss : list sel) : sel :=
  match j with 1%nat => Skip | 2%nat => hd Skip ss | _ => Full end.

(** before the first sync only some data writes were issued, each with its fate; after it all data pages are
    durable and the image differs from that only by the meta write *)
Lemma crash_commit_cases d T A k ss :
  (k <= length A)%nat /\
    crash d (commit_events T A) k ss = apply_sel d (map (fun q => WData q T) (firstn k A)) ss \/
  (length A < k)%nat /\
    crash d (commit_events T A) k ss =
    apply_wr (apply_sel d (map (fun q => WData q T) A) (repeat Full (length A))) (WMeta (N.odd T) T)
             (meta_fate (k - length A) ss).
Proof.
  unfold crash, commit_events. rewrite <- (map_map (fun q => WData q T) EW), firstn_app, !map_length.
  destruct (Nat.le_gt_cases k (length A)) as [Hk|Hk]; [left | right]; (split; [exact Hk|]).
  - replace (k - length A)%nat with O by lia. rewrite !firstn_map, run_ev_writes. reflexivity.
  - rewrite firstn_all2 by (rewrite !map_length; lia). rewrite run_ev_writes.
    destruct (k - length A)%nat as [|[|[|j]]] eqn:Ek; [lia | | |]; simpl; rewrite fold_full_sel, map_length.
    + destruct ss; reflexivity.
    + destruct ss as [|s [|]]; reflexivity.
    + destruct j, ss; reflexivity.
Qed.

Lemma outcome_after_data d d1 t A s : at_rest d1 t ->
  (forall p, ~ In p A -> page_content d1 p = page_content d p) ->
  (forall p, In p A -> page_content d1 p = Some (Some (t + 1))) ->
  outcome d (apply_wr d1 (WMeta (N.odd (t + 1)) (t + 1)) s) t (t + 1) A.
Proof.
  intros R1 Fr Wr. pose proof (meta_write_outcomes d1 t s R1) as Rc.
  assert (PC : forall p, page_content (apply_wr d1 (WMeta (N.odd (t + 1)) (t + 1)) s) p = page_content d1 p).
  { intros p. destruct s, (N.odd (t + 1)); reflexivity. }
  destruct s; [left | right | left]; (split; [exact Rc|]); try split; intros p Hp; rewrite PC; auto.
Qed.

Theorem crash_atomic d t A k ss : at_rest d t ->
  outcome d (crash d (commit_events (t + 1) A) k ss) t (t + 1) A.
Proof.
  intros H. destruct (crash_commit_cases d (t + 1) A k ss) as [[_ ->]|[_ ->]].
  - (* crash while the data pages are being written: nothing is synced yet *)
    destruct (data_writes_frame (firstn k A) (t + 1) ss d) as (M0 & M1 & Fr). left. split.
    + rewrite (recover_metas _ d M0 M1). exact (recover_old d t H).
    + intros p Hn. apply Fr. intros Hin. apply Hn. rewrite <- (firstn_skipn k A). apply in_or_app. now left.
  - destruct (data_writes_frame A (t + 1) (repeat Full (length A)) d) as (M0 & M1 & Fr).
    exact (outcome_after_data d _ t A _ (at_rest_metas d _ t M0 M1 H) Fr (full_data_written A (t + 1) d)).
Qed.

(** the new state is recovered ONLY when the meta write was completely persisted, and then always *)
Theorem crash_new_iff_meta_persisted d t A k ss : at_rest d t ->
  (recover (crash d (commit_events (t + 1) A) k ss) = Some (t + 1) <->
   (k = (length A + 2)%nat /\ hd Skip ss = Full) \/ (length A + 3 <= k)%nat).
Proof.
  intros H. destruct (crash_commit_cases d (t + 1) A k ss) as [[Hk ->]|[Hk ->]].
  - destruct (data_writes_frame (firstn k A) (t + 1) ss d) as (M0 & M1 & _).
    rewrite (recover_metas _ d M0 M1), (recover_old d t H). split; [intros E; inversion E; lia | lia].
  - destruct (data_writes_frame A (t + 1) (repeat Full (length A)) d) as (M0 & M1 & _).
    rewrite (meta_write_outcomes _ t _ (at_rest_metas d _ t M0 M1 H)).
    assert (X : forall s, Some match s with Full => t + 1 | _ => t end = Some (t + 1) <-> s = Full).
    { destruct s; split; intros E; try reflexivity; try discriminate; inversion E; lia. }
    rewrite X. destruct (k - length A)%nat as [|[|[|j]]] eqn:Ek; [lia | | |]; simpl.
    + split; [discriminate | lia].
    + split; [intros E; left; split; [lia | exact E] | intros [[_ E]|E]; [exact E | lia]].
    + split; [intros _; right; lia | reflexivity].
Qed.

(** after the commit completed, the image is at rest at the new txid: the same theorems apply to the next commit *)
Theorem commit_reestablishes_rest d t A : at_rest d t ->
  at_rest (fst (run_ev d [] (commit_events (t + 1) A))) (t + 1).
Proof.
  intros H. unfold commit_events. rewrite <- (map_map (fun q => WData q (t + 1)) EW), run_ev_writes. simpl.
  rewrite fold_full_sel, map_length.
  destruct (data_writes_frame A (t + 1) (repeat Full (length A)) d) as (M0 & M1 & _).
  exact (meta_full_at_rest _ t (at_rest_metas d _ t M0 M1 H)).
Qed.
