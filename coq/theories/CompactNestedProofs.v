(** Compact reproduces a well-formed source exactly, however deep its buckets are nested, if and only if the nested
    sequences fit in a uint64; in general it reproduces them modulo 2^64. *)
From Bbolt Require Import Base Consts Spec SpecProofs Compact CompactProofs.
From Bbolt Require Fnv.

Lemma apply_items_app d a b :
  apply_items d (a ++ b) = match apply_items d a with (ENone, d1) => apply_items d1 b | e => e end.
Proof.
  revert d. induction a as [|it a IH]; intros d; [reflexivity|].
  cbn [app apply_items]. destruct (apply_item d it) as [e d1]. destruct e; try reflexivity. apply IH.
Qed.

(** * sequences must fit in a uint64 (they always do in Go); [set_sequence] stores [v mod M64] *)
Fixpoint seqs_ok (fuel : nat) (ents : list (bytes * entry)) : bool :=
  match fuel with O => true | S f =>
    forallb (fun ke => match snd ke with
                       | Val _ => true
                       | Sub s es => (s <? M64) && seqs_ok f es
                       end) ents
  end.

(** without the bound the copy differs from the source: a nested sequence of 2^64 arrives as 0 *)
Example compact_rebuilds_needs_seq_bound :
  let src : bucket := (0, [([1], Sub M64 [])]) in
  wf_ents 2 (snd src) = true /\ compact 2 src = (ENone, (0, [([1], Sub 0 [])])) /\ compact 2 src <> (ENone, (0, snd src)).
Proof. vm_compute. repeat split; try reflexivity. discriminate. Qed.

(** * single steps of the copy, into a destination bucket [(s, l)] at [path] that does not have the key yet *)
Lemma put_step {path k v d s l} :
  resolve path d = Some (s, l) -> (len k =? 0) = false ->
  (len k <=? max_key_size) = true -> (len v <=? max_value_size) = true -> lookup k l = None ->
  put path k v (len v) d = (ENone, update path (s, insert k (Val v) l) d).
Proof.
  intros R Hk Hks Hvs L. rewrite N.leb_le, <- N.ltb_ge in Hks, Hvs.
  unfold put. rewrite R, Hk, Hks, Hvs. cbn [fst snd]. now rewrite L.
Qed.

Lemma sub_resolve {path d b0} k s sq es l : resolve path d = Some b0 ->
  resolve (path ++ [k]) (update path (s, insert k (Sub sq es) l) d) = Some (sq, es).
Proof. intros R. rewrite (resolve_update_through path _ _ d b0 R). cbn [resolve snd]. now rewrite lookup_insert_same. Qed.

(** filling the bucket just created *)
Lemma sub_fill {path d b0} k s sq0 es0 sq es l : resolve path d = Some b0 ->
  update (path ++ [k]) (sq, es) (update path (s, insert k (Sub sq0 es0) l) d) = update path (s, insert k (Sub sq es) l) d.
Proof.
  intros R. rewrite (update_app path [k] _ _ _ (resolve_update path _ d b0 R)), (update_update _ _ _ _ _ R).
  cbn [update snd fst]. now rewrite lookup_insert_same, insert_insert.
Qed.

Lemma bkt_step {path k sq d s l} :
  resolve path d = Some (s, l) -> (len k =? 0) = false -> sq < M64 -> lookup k l = None ->
  apply_item d (IBkt path k sq) = (ENone, update path (s, insert k (Sub sq []) l) d).
Proof.
  intros R Hk Hsq L. cbn [apply_item]. unfold create_bucket. rewrite R, Hk. cbn [fst snd]. rewrite L.
  unfold set_sequence. rewrite (sub_resolve _ _ _ _ _ R). cbn [fst snd].
  now rewrite (N.mod_small _ _ Hsq), (sub_fill _ _ _ _ _ _ _ R).
Qed.

Lemma wf_ents_sorted fuel ents : wf_ents fuel ents = true -> keys_sorted ents = true.
Proof. destruct fuel as [|f]; cbn [wf_ents]; [discriminate|]. intros H. apply andb_true_iff in H. tauto. Qed.

(** copying [ents] into the destination bucket at [path], which already holds
    [prefix] (all keys smaller), yields exactly [prefix ++ ents] there and changes nothing else *)
Lemma walk_ents_correct : forall fuel path ents d s prefix,
  wf_ents fuel ents = true -> seqs_ok fuel ents = true ->
  resolve path d = Some (s, prefix) -> keys_sorted (prefix ++ ents) = true ->
  apply_items d (walk_ents fuel path ents) = (ENone, update path (s, prefix ++ ents) d).
Proof.
  induction fuel as [|f IHf]; intros path ents d s prefix Hwf Hsq R Hs; [discriminate|].
  cbn [wf_ents seqs_ok walk_ents] in *. apply andb_true_iff in Hwf as [_ Hwf].
  revert d prefix R Hs. induction ents as [|[k e] rest IH]; intros d prefix R Hs.
  - cbn [flat_map apply_items]. rewrite app_nil_r. f_equal. symmetry. apply update_noop. congruence.
  - cbn [forallb flat_map fst snd] in *.
    apply andb_true_iff in Hwf as [[Hk%negb_true_iff He]%andb_true_iff Hwf], Hsq as [Hse Hsq].
    pose proof (sorted_mid_all_lt Hs) as Hlt. pose proof (lookup_above Hlt) as L.
    change (prefix ++ (k, e) :: rest) with (prefix ++ [(k, e)] ++ rest) in *. rewrite app_assoc in *.
    (* above [prefix], to append [(k, e)] is to insert it; from the destination in which that has been done the
       induction hypothesis copies [rest] behind it, so it remains to show that the items of [(k, e)] insert it *)
    rewrite <- (insert_above e Hlt) in Hs |- *.
    specialize (IH Hwf Hsq _ _ (resolve_update path (s, insert k e prefix) d _ R) Hs).
    rewrite (update_update path _ _ d _ R) in IH.
    rewrite apply_items_app. destruct e as [v|sq es].
    + apply andb_true_iff in He as [Hks Hvs]. cbn [apply_items apply_item].
      now rewrite (put_step R Hk Hks Hvs L).
    + apply andb_true_iff in Hse as [Hsqb%N.ltb_lt Hses]. cbn [apply_items].
      rewrite (bkt_step R Hk Hsqb L).
      rewrite (IHf (path ++ [k]) es _ sq [] He Hses (sub_resolve _ _ _ _ _ R) (wf_ents_sorted _ _ He)).
      cbn [app]. now rewrite (sub_fill _ _ _ _ _ _ _ R).
Qed.

Theorem compact_rebuilds : forall fuel src,
  wf_ents fuel (snd src) = true -> seqs_ok fuel (snd src) = true ->
  compact fuel src = (ENone, (0, snd src)).
Proof.
  intros fuel src Hwf Hsq. unfold compact, walk.
  rewrite (walk_ents_correct fuel [] (snd src) (0, []) 0 [] Hwf Hsq eq_refl (wf_ents_sorted _ _ Hwf)).
  reflexivity.
Qed.

(** * without the bound: the destination is the source with every nested sequence reduced modulo 2^64 *)
Fixpoint norm_ents (fuel : nat) (ents : list (bytes * entry)) : list (bytes * entry) :=
  match fuel with O => ents | S f =>
    map (fun ke => (fst ke, match snd ke with
                            | Val v => Val v
                            | Sub s es => Sub (s mod M64) (norm_ents f es)
                            end)) ents
  end.

Definition norm_item (it : item) : item :=
  match it with IBkt p n s => IBkt p n (s mod M64) | IVal p k v => IVal p k v end.

Lemma apply_item_norm d it : apply_item d (norm_item it) = apply_item d it.
Proof.
  destruct it as [p n s|p k v]; [|reflexivity]. cbn [norm_item apply_item].
  destruct (create_bucket p n d) as [e d1]. destruct e; try reflexivity.
  unfold set_sequence. now rewrite (N.mod_mod s M64 Fnv.M64_nz).
Qed.

Lemma apply_items_norm l : forall d, apply_items d (map norm_item l) = apply_items d l.
Proof.
  induction l as [|it l IH]; intros d; [reflexivity|].
  cbn [map apply_items]. rewrite apply_item_norm. destruct (apply_item d it) as [e d1].
  destruct e; try reflexivity. apply IH.
Qed.

Lemma walk_norm : forall fuel path ents,
  walk_ents fuel path (norm_ents fuel ents) = map norm_item (walk_ents fuel path ents).
Proof.
  induction fuel as [|f IHf]; intros path ents; [reflexivity|].
  cbn [walk_ents norm_ents]. induction ents as [|[k e] rest IH]; [reflexivity|].
  cbn [map flat_map fst snd]. rewrite map_app. rewrite IH. f_equal.
  destruct e as [v|s es]; [reflexivity|]. cbn [map norm_item]. now rewrite IHf.
Qed.

Lemma wf_norm : forall fuel ents, wf_ents fuel (norm_ents fuel ents) = wf_ents fuel ents.
Proof.
  induction fuel as [|f IHf]; intros ents; [reflexivity|].
  cbn [wf_ents norm_ents]. rewrite keys_sorted_map. f_equal.
  induction ents as [|[k e] rest IH]; [reflexivity|].
  cbn [map forallb fst snd]. rewrite IH. f_equal. f_equal.
  destruct e as [v|s es]; [reflexivity|]. apply IHf.
Qed.

Lemma seqs_norm : forall fuel ents, seqs_ok fuel (norm_ents fuel ents) = true.
Proof.
  induction fuel as [|f IHf]; intros ents; [reflexivity|].
  cbn [seqs_ok norm_ents]. induction ents as [|[k e] rest IH]; [reflexivity|].
  cbn [map forallb fst snd]. rewrite IH. rewrite andb_true_r.
  destruct e as [v|s es]; [reflexivity|]. rewrite IHf, andb_true_r.
  apply N.ltb_lt. apply N.mod_lt. exact Fnv.M64_nz.
Qed.

(** Compact of ANY well-formed source: exact result, no further hypothesis *)
Theorem compact_rebuilds_norm : forall fuel src,
  wf_ents fuel (snd src) = true -> compact fuel src = (ENone, (0, norm_ents fuel (snd src))).
Proof.
  intros fuel src Hwf. unfold compact, walk.
  rewrite <- apply_items_norm, <- walk_norm.
  apply (compact_rebuilds fuel (fst src, norm_ents fuel (snd src))); cbn [snd].
  - now rewrite wf_norm.
  - apply seqs_norm.
Qed.

(** the bound on the sequences is necessary as well as sufficient for the copy to equal the source *)
Theorem compact_rebuilds_iff : forall fuel src, wf_ents fuel (snd src) = true ->
  (compact fuel src = (ENone, (0, snd src)) <-> seqs_ok fuel (snd src) = true).
Proof.
  intros fuel src Hwf. split; [|now apply compact_rebuilds].
  rewrite (compact_rebuilds_norm _ _ Hwf). intros [= E]. rewrite <- E. apply seqs_norm.
Qed.

Print Assumptions apply_items_app.
Print Assumptions walk_ents_correct.
Print Assumptions compact_rebuilds_norm.
Print Assumptions compact_rebuilds_iff.
Print Assumptions compact_rebuilds.
Print Assumptions compact_rebuilds_needs_seq_bound.
