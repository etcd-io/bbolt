(** LayoutBucketProofs: the independent reader Layout.v decodes what the code's writer (Node.write, Node.bucket_write,
    Node.bucket_header_value) produces for leaf pages whose elements carry flags: plain values (even flags), inline
    buckets (odd flags, root 0, the root leaf serialised inside the value) and paged buckets (odd flags, root <> 0). *)
From Bbolt Require Import Base BaseProofs Consts Spec Layout LayoutEnc LayoutProofs LayoutPageProofs Node NodeProofs.

(** * the order test of one page: keys strictly increasing, first key >= lo, all keys < hi *)
Definition key_order (lo hi : option bytes) (keys : list bytes) : bool :=
  strictly_inc keys && match keys with [] => true | k :: _ => opt_le lo k end && forallb (fun k => opt_lt k hi) keys.

Lemma key_order_true_iff lo hi keys :
  key_order lo hi keys = true <->
  strictly_inc keys = true /\ match keys with [] => True | k :: _ => opt_le lo k = true end
  /\ Forall (fun k => opt_lt k hi = true) keys.
Proof.
  unfold key_order. rewrite !andb_true_iff, forallb_forall, Forall_forall.
  destruct keys as [|k r]; intuition.
Qed.

(** [dec_page], and with it [leaf_res] and [leaf_plain_dec] of LayoutPageProofs, spell the test out; results stated
    with [key_order] meet them through this equation *)
Lemma key_order_spelled lo hi keys :
  strictly_inc keys && match keys with [] => true | k :: _ => opt_le lo k end && forallb (fun k => opt_lt k hi) keys
  = key_order lo hi keys.
Proof. reflexivity. Qed.

(** the reader's [strictly_inc] and the node model's [keys_sorted] are the same test *)
Lemma strictly_inc_keys_sorted ks : strictly_inc ks = keys_sorted ks.
Proof.
  induction ks as [|k r IH]; [reflexivity|]. cbn [strictly_inc keys_sorted]. destruct r as [|k' r']; [reflexivity|].
  rewrite IH. reflexivity.
Qed.

(** with no bounds (the root of a bucket) the order test is just sortedness *)
Lemma key_order_none keys : key_order None None keys = keys_sorted keys.
Proof.
  unfold key_order. rewrite forallb_opt_lt_none, andb_true_r, strictly_inc_keys_sorted.
  destruct keys; cbn [opt_le]; now rewrite andb_true_r.
Qed.

Lemma write_leaf_image rd b n pg ov img :
  n_leaf n = true -> size n < 2^32 -> write n pg ov = Ok img -> has_bytes rd b img ->
  has_bytes rd b (enc_page_header pg leaf_page_flag (N.of_nat (length (n_inodes n))) ov
                  ++ enc_elems true 0 (n_inodes n) ++ enc_data (n_inodes n)) /\
  N.of_nat (length (n_inodes n)) < 65535 /\
  16 + 16 * N.of_nat (length (n_inodes n)) + data_total (n_inodes n) < 2^32.
Proof.
  intros Hleaf Hsz Hw W. rewrite size_total in Hsz.
  split; [|split; [exact (write_ok_count _ _ _ _ Hw) | exact Hsz]].
  apply write_ok_inv in Hw. rewrite Hleaf in Hw. now rewrite Hw in W.
Qed.

(** * a leaf whose elements carry arbitrary EVEN flags: all elements are plain values *)
Lemma leaf_flags_dec rd ps f b n pg ov img limit inline lo hi :
  n_leaf n = true ->
  Forall (fun x => i_flags x < 2^32 /\ N.odd (i_flags x) = false) (n_inodes n) ->
  pg < 2^64 -> ov < 2^32 -> size n < 2^32 ->
  write n pg ov = Ok img -> has_bytes rd b img ->
  b + size n <= limit ->
  dec_page rd ps (S f) b limit inline lo hi =
  Some {| r_ents := map (fun x => (i_key x, Val (i_val x))) (n_inodes n);
          r_pages := if inline then [] else [(pg, ov, leaf_page_flag)];
          r_order := key_order lo hi (keys_of (n_inodes n));
          r_bounds := true |}.
Proof.
  intros Hleaf Hfl Hpg Hov Hsz Hw W Hlim.
  destruct (write_leaf_image rd b n pg ov img Hleaf Hsz Hw W) as (WI & Hc & H32).
  rewrite size_total in Hlim.
  rewrite (leaf_plain_dec rd ps f b pg ov _ limit inline lo hi WI Hpg Hov); [now rewrite key_order_spelled | lia | exact Hfl | exact H32 | lia].
Qed.

Theorem leaf_flags_roundtrip ps f n pg ov img pre post limit inline lo hi :
  n_leaf n = true ->
  Forall (fun x => i_flags x < 2^32 /\ N.odd (i_flags x) = false) (n_inodes n) ->
  pg < 2^64 -> ov < 2^32 -> size n < 2^32 ->
  write n pg ov = Ok img ->
  N.of_nat (length pre) + size n <= limit ->
  dec_page (rd_of (pre ++ img ++ post)) ps (S f) (N.of_nat (length pre)) limit inline lo hi =
  Some {| r_ents := map (fun x => (i_key x, Val (i_val x))) (n_inodes n);
          r_pages := if inline then [] else [(pg, ov, leaf_page_flag)];
          r_order := key_order lo hi (keys_of (n_inodes n));
          r_bounds := true |}.
Proof. intros Hleaf Hfl Hpg Hov Hsz Hw. apply (leaf_flags_dec _ ps f _ n pg ov img); try assumption. apply has_bytes_rd_of. Qed.

Print Assumptions leaf_flags_roundtrip.

Definition plain_ents (l : list inode) : list (bytes * entry) := map (fun x => (i_key x, Val (i_val x))) l.
Definition plain_flags (l : list inode) : Prop := Forall (fun x => i_flags x < 2^32 /\ N.odd (i_flags x) = false) l.

Lemma bucket_write_inv seq m v : bucket_write seq m = Ok v ->
  exists pgb, write m 0 0 = Ok pgb /\ v = enc_le 8 0 ++ enc_le 8 seq ++ pgb /\ len v = 16 + size m.
Proof.
  unfold bucket_write. destruct (write m 0 0) as [pgb| |] eqn:W; cbn [bindr]; try discriminate.
  intros H. assert (v = enc_inbucket 0 seq ++ pgb) as -> by congruence.
  exists pgb. unfold enc_inbucket. rewrite <- app_assoc. repeat split.
  unfold len. rewrite !app_length, !enc_le_length, !Nat2N.inj_add, (write_length _ _ _ _ W). lia.
Qed.

Lemma bucket_header_read rd kp k root seq rest :
  has_bytes rd kp (k ++ enc_le 8 root ++ enc_le 8 seq ++ rest) -> root < 2^64 -> seq < 2^64 ->
  let vb := kp + len k in
  rbytes rd (N.to_nat (len k)) kp = k /\ u64 rd vb = root /\ u64 rd (vb + 8) = seq /\ has_bytes rd (vb + 16) rest.
Proof.
  intros W Hroot Hseq vb. apply has_bytes_app in W as [Wk W]. fold vb in W.
  destruct (has_bytes_field0 _ _ _ _ _ W) as [Er W1].
  destruct (has_bytes_field _ vb 8 _ _ _ W1) as [Es W2].
  unfold len. rewrite Nat2N.id. auto.
Qed.

(** an inline bucket: value = Bucket.write of a leaf [m] with plain elements *)
Lemma elem_dec_inline rd ps f fl kp k v seq m :
  N.odd fl = true -> seq < 2^64 -> n_leaf m = true -> plain_flags (n_inodes m) -> bucket_write seq m = Ok v ->
  len v < 2^32 -> has_bytes rd kp (k ++ v) ->
  elem_dec rd ps (S f) (fl, kp, len k, len v)
  = Some (k, Sub seq (plain_ents (n_inodes m)), [], key_order None None (keys_of (n_inodes m)), true).
Proof.
  intros Hodd Hseq Hml Hmf Hbw H32 W.
  destruct (bucket_write_inv seq m _ Hbw) as (pgb & Wm & -> & Hlen).
  destruct (bucket_header_read _ _ _ _ _ _ W) as (Ek & Er & Es & Wp); [reflexivity | exact Hseq |].
  unfold elem_dec. rewrite Hodd, Ek, Er, Es. change (0 =? 0) with true. cbv iota.
  (* the root is written as page 0 with overflow 0; its size and its end come from [Hlen] *)
  rewrite (leaf_flags_dec rd ps f _ m 0 0 pgb _ true None None Hml Hmf eq_refl eq_refl); [| lia | exact Wm | exact Wp | lia].
  cbn [r_ents r_pages r_order r_bounds andb]. now replace (16 <=? _) with true by (symmetry; apply N.leb_le; lia).
Qed.

(** a paged bucket: value = the bucket header alone, the root page is read from the file *)
Lemma elem_dec_paged rd ps f fl kp k root seq d :
  N.odd fl = true -> root <> 0 -> root < 2^64 -> seq < 2^64 ->
  dec_page rd ps f (root * ps) (root * ps + (u32 rd (root * ps + 12) + 1) * ps) false None None = Some d ->
  has_bytes rd kp (k ++ bucket_header_value root seq) ->
  elem_dec rd ps f (fl, kp, len k, len (bucket_header_value root seq))
  = Some (k, Sub seq (r_ents d), r_pages d, r_order d, r_bounds d).
Proof.
  intros Hodd Hnz Hroot Hseq Hd W. unfold bucket_header_value, enc_inbucket in *.
  rewrite <- (app_nil_r (enc_le 8 seq)) in W.
  destruct (bucket_header_read _ _ _ _ _ _ W Hroot Hseq) as (Ek & Er & Es & _).
  unfold elem_dec. rewrite Hodd, Ek, Er, Es. destruct (N.eqb_spec root 0); [contradiction|].
  rewrite Hd. now rewrite andb_true_r.
Qed.

(** what one element of a written leaf decodes to (file content [rd], fuel [f] left for sub-buckets) *)
Inductive elem_res (rd : N -> N) (ps : N) (f : nat) : inode -> eres -> Prop :=
| er_plain x : N.odd (i_flags x) = false -> elem_res rd ps f x (plain_res x)
| er_inline x seq m f' : f = S f' -> N.odd (i_flags x) = true -> seq < 2^64 ->
    n_leaf m = true -> plain_flags (n_inodes m) -> bucket_write seq m = Ok (i_val x) ->
    elem_res rd ps f x (i_key x, Sub seq (plain_ents (n_inodes m)), [], key_order None None (keys_of (n_inodes m)), true)
| er_paged x root seq d : N.odd (i_flags x) = true -> i_val x = bucket_header_value root seq ->
    root <> 0 -> root < 2^64 -> seq < 2^64 ->
    dec_page rd ps f (root * ps) (root * ps + (u32 rd (root * ps + 12) + 1) * ps) false None None = Some d ->
    elem_res rd ps f x (i_key x, Sub seq (r_ents d), r_pages d, r_order d, r_bounds d).

Lemma elem_res_dec rd ps f x r kp : elem_res rd ps f x r -> len (i_val x) < 2^32 ->
  has_bytes rd kp (i_key x ++ i_val x) ->
  elem_dec rd ps f (i_flags x, kp, len (i_key x), len (i_val x)) = Some r.
Proof.
  intros [x0 Hev | x0 seq m f' -> Hodd Hseq Hml Hmf Hbw | x0 root seq d Hodd -> Hnz Hroot Hseq Hd] H32 W.
  - now apply elem_dec_plain.
  - now apply elem_dec_inline.
  - now apply elem_dec_paged.
Qed.

(** * a written leaf whose elements are any mixture of plain values, inline buckets and paged buckets *)
Theorem leaf_buckets_roundtrip ps f n pg ov img pre post limit inline lo hi rs :
  n_leaf n = true ->
  Forall (fun x => i_flags x < 2^32) (n_inodes n) ->
  pg < 2^64 -> ov < 2^32 -> size n < 2^32 ->
  write n pg ov = Ok img ->
  N.of_nat (length pre) + size n <= limit ->
  Forall2 (elem_res (rd_of (pre ++ img ++ post)) ps f) (n_inodes n) rs ->
  dec_page (rd_of (pre ++ img ++ post)) ps (S f) (N.of_nat (length pre)) limit inline lo hi =
  Some {| r_ents := map (fun r : eres => let '(k, e, _, _, _) := r in (k, e)) rs;
          r_pages := (if inline then [] else [(pg, ov, leaf_page_flag)])
                     ++ flat_map (fun r : eres => let '(_, _, p, _, _) := r in p) rs;
          r_order := key_order lo hi (keys_of (n_inodes n)) && forallb (fun r : eres => let '(_, _, _, o, _) := r in o) rs;
          r_bounds := forallb (fun r : eres => let '(_, _, _, _, bd) := r in bd) rs |}.
Proof.
  intros Hleaf Hfl Hpg Hov Hsz Hw Hlim HF.
  destruct (write_leaf_image _ _ n pg ov img Hleaf Hsz Hw (has_bytes_rd_of pre img post)) as (WI & Hc & H32).
  rewrite size_total in Hlim.
  rewrite (leaf_image_dec _ ps f _ pg ov _ limit inline lo hi rs WI Hpg Hov);
    [unfold leaf_res; now rewrite key_order_spelled | lia | exact Hfl | exact H32 | lia |].
  eapply Forall2_impl; [|exact HF]. intros x r Hr kp WK B32. apply (elem_res_dec _ _ _ _ _ _ Hr); [lia | exact WK].
Qed.

Print Assumptions leaf_buckets_roundtrip.

Lemma plain_flags_res rd ps f l : plain_flags l -> Forall2 (elem_res rd ps f) l (map plain_res l).
Proof.
  induction 1 as [|x r [_ Hx] _ IH]; cbn [map]; constructor; [apply er_plain; exact Hx | exact IH].
Qed.

Lemma plain_flags_lt l : plain_flags l -> Forall (fun x => i_flags x < 2^32) l.
Proof. intros H. eapply Forall_impl; [|exact H]. intros x [Hx _]. exact Hx. Qed.

Lemma leaf_one_bucket ps f n pg ov img pre post limit inline lo hi l1 x l2 k e p o bd :
  n_leaf n = true -> n_inodes n = l1 ++ x :: l2 ->
  plain_flags l1 -> plain_flags l2 -> i_flags x < 2^32 ->
  pg < 2^64 -> ov < 2^32 -> size n < 2^32 ->
  write n pg ov = Ok img ->
  N.of_nat (length pre) + size n <= limit ->
  elem_res (rd_of (pre ++ img ++ post)) ps f x (k, e, p, o, bd) ->
  dec_page (rd_of (pre ++ img ++ post)) ps (S f) (N.of_nat (length pre)) limit inline lo hi =
  Some {| r_ents := plain_ents l1 ++ (k, e) :: plain_ents l2;
          r_pages := (if inline then [] else [(pg, ov, leaf_page_flag)]) ++ p;
          r_order := key_order lo hi (keys_of (n_inodes n)) && o;
          r_bounds := bd |}.
Proof.
  intros Hleaf E H1 H2 Hx Hpg Hov Hsz Hw Hlim Hr.
  assert (Hfl : Forall (fun y => i_flags y < 2^32) (n_inodes n)).
  { rewrite E. apply Forall_app. split; [apply plain_flags_lt; exact H1 | constructor; [exact Hx | apply plain_flags_lt; exact H2]]. }
  assert (HF : Forall2 (elem_res (rd_of (pre ++ img ++ post)) ps f) (n_inodes n) (map plain_res l1 ++ (k, e, p, o, bd) :: map plain_res l2)).
  { rewrite E. apply Forall2_app; [apply plain_flags_res; exact H1 | constructor; [exact Hr | apply plain_flags_res; exact H2]]. }
  rewrite (leaf_buckets_roundtrip ps f n pg ov img pre post limit inline lo hi _ Hleaf Hfl Hpg Hov Hsz Hw Hlim HF).
  rewrite map_app, flat_map_app, !forallb_app. cbn [map flat_map forallb].
  rewrite !plain_res_ents, !plain_res_pages, !plain_res_order, !plain_res_bounds, app_nil_r.
  cbn [app andb]. rewrite !andb_true_r. reflexivity.
Qed.

(** * an inline bucket between plain elements.  The flag of the bucket element may be any odd value below 2^32,
    in particular bucket_leaf_flag = 1; the plain elements may carry any even flags. *)
Theorem inline_bucket_roundtrip ps f n pg ov img pre post limit inline lo hi l1 x l2 seq m :
  n_leaf n = true -> n_inodes n = l1 ++ [x] ++ l2 ->
  plain_flags l1 -> plain_flags l2 ->
  i_flags x < 2^32 -> N.odd (i_flags x) = true ->
  seq < 2^64 -> n_leaf m = true -> plain_flags (n_inodes m) -> bucket_write seq m = Ok (i_val x) ->
  pg < 2^64 -> ov < 2^32 -> size n < 2^32 ->
  write n pg ov = Ok img ->
  N.of_nat (length pre) + size n <= limit ->
  dec_page (rd_of (pre ++ img ++ post)) ps (S (S f)) (N.of_nat (length pre)) limit inline lo hi =
  Some {| r_ents := plain_ents l1 ++ [(i_key x, Sub seq (plain_ents (n_inodes m)))] ++ plain_ents l2;
          r_pages := if inline then [] else [(pg, ov, leaf_page_flag)];
          r_order := key_order lo hi (keys_of (n_inodes n)) && key_order None None (keys_of (n_inodes m));
          r_bounds := true |}.
Proof.
  intros Hleaf E H1 H2 Hx Hodd Hseq Hml Hmf Hbw Hpg Hov Hsz Hw Hlim.
  rewrite (leaf_one_bucket ps (S f) n pg ov img pre post limit inline lo hi l1 x l2
             (i_key x) (Sub seq (plain_ents (n_inodes m))) [] (key_order None None (keys_of (n_inodes m))) true
             Hleaf E H1 H2 Hx Hpg Hov Hsz Hw Hlim).
  - rewrite app_nil_r. reflexivity.
  - apply (er_inline _ _ _ x seq m f eq_refl Hodd Hseq Hml Hmf Hbw).
Qed.

(** the value of an inline bucket is its 16-byte header plus the serialised root: 16 + size m bytes *)
Corollary inline_value_length seq m v : bucket_write seq m = Ok v -> len v = 16 + size m.
Proof. intros H. destruct (bucket_write_inv seq m v H) as (_ & _ & _ & L). exact L. Qed.

(** * a paged bucket between plain elements; its root leaf [m] is written at page [root] (offset root * ps) of the
    same file, behind the parent and [pad] bytes of anything *)
Theorem paged_bucket_roundtrip ps f n pg ov img pre pad cimg post limit inline lo hi l1 x l2 root seq m ov' :
  n_leaf n = true -> n_inodes n = l1 ++ [x] ++ l2 ->
  plain_flags l1 -> plain_flags l2 ->
  i_flags x < 2^32 -> N.odd (i_flags x) = true ->
  i_val x = bucket_header_value root seq -> root <> 0 -> root < 2^64 -> seq < 2^64 ->
  pg < 2^64 -> ov < 2^32 -> size n < 2^32 ->
  write n pg ov = Ok img ->
  N.of_nat (length pre) + size n <= limit ->
  n_leaf m = true -> plain_flags (n_inodes m) -> ov' < 2^32 -> size m < 2^32 ->
  write m root ov' = Ok cimg ->
  N.of_nat (length (pre ++ img ++ pad)) = root * ps ->
  size m <= (ov' + 1) * ps ->
  dec_page (rd_of (pre ++ img ++ pad ++ cimg ++ post)) ps (S (S f)) (N.of_nat (length pre)) limit inline lo hi =
  Some {| r_ents := plain_ents l1 ++ [(i_key x, Sub seq (plain_ents (n_inodes m)))] ++ plain_ents l2;
          r_pages := (if inline then [] else [(pg, ov, leaf_page_flag)]) ++ [(root, ov', leaf_page_flag)];
          r_order := key_order lo hi (keys_of (n_inodes n)) && key_order None None (keys_of (n_inodes m));
          r_bounds := true |}.
Proof.
  intros Hleaf E H1 H2 Hx Hodd Hv Hnz Hroot Hseq Hpg Hov Hsz Hw Hlim Hml Hmf Hov' Hmsz Hcw Hoff Hfit.
  set (d := {| r_ents := plain_ents (n_inodes m); r_pages := [(root, ov', leaf_page_flag)];
               r_order := key_order None None (keys_of (n_inodes m)); r_bounds := true |}).
  rewrite (leaf_one_bucket ps (S f) n pg ov img pre (pad ++ cimg ++ post) limit inline lo hi l1 x l2
             (i_key x) (Sub seq (r_ents d)) (r_pages d) (r_order d) (r_bounds d)
             Hleaf E H1 H2 Hx Hpg Hov Hsz Hw Hlim); [reflexivity|].
  apply (er_paged _ _ _ x root seq d Hodd Hv Hnz Hroot Hseq).
  assert (Wc : has_bytes (rd_of (pre ++ img ++ pad ++ cimg ++ post)) (root * ps) cimg).
  { rewrite <- Hoff. replace (pre ++ img ++ pad ++ cimg ++ post) with ((pre ++ img ++ pad) ++ cimg ++ post)
      by now rewrite <- !app_assoc. apply has_bytes_rd_of. }
  destruct (write_leaf_image _ _ m root ov' cimg Hml Hmsz Hcw Wc) as (WI & _).
  destruct (page_header_read _ _ _ _ _ _ _ WI) as (_ & _ & _ & Eo & _). rewrite (Eo Hov').
  apply (leaf_flags_dec _ ps f _ m root ov' cimg _ false None None Hml Hmf Hroot Hov' Hmsz Hcw Wc). lia.
Qed.

Print Assumptions inline_bucket_roundtrip.
Print Assumptions paged_bucket_roundtrip.

(** the root page of a paged bucket, given as the published layout at page [root] of the file, as the decoder of
    the bucket element reaches it *)
Lemma paged_root_dec ps f root ov' kvs pre post :
  N.of_nat (length pre) = root * ps -> root < 2^64 -> ov' < 2^32 -> N.of_nat (length kvs) < 65536 ->
  N.of_nat (length (enc_leaf_page_ov root ov' kvs)) < 2^32 ->
  N.of_nat (length (enc_leaf_page_ov root ov' kvs)) <= (ov' + 1) * ps ->
  strictly_inc (map fst kvs) = true ->
  let rd := rd_of (pre ++ enc_leaf_page_ov root ov' kvs ++ post) in
  dec_page rd ps (S f) (root * ps) (root * ps + (u32 rd (root * ps + 12) + 1) * ps) false None None =
  Some {| r_ents := map (fun kv => (fst kv, Val (snd kv))) kvs; r_pages := [(root, ov', leaf_page_flag)];
          r_order := true; r_bounds := true |}.
Proof.
  intros Hoff Hroot Hov' Hc H32 Hfit Hinc rd. subst rd. rewrite <- Hoff.
  destruct (page_header_read _ _ _ _ _ _ _ (has_bytes_rd_of pre (enc_leaf_page_ov root ov' kvs) post)) as (_ & _ & _ & Eo & _).
  rewrite (Eo Hov'). apply leaf_page_ov_roundtrip; try assumption; lia.
Qed.

(** the same with the root page of the paged bucket given as the published layout [enc_leaf_page_ov root ov' kvs] *)
Theorem paged_bucket_spec_roundtrip ps f n pg ov img pre pad post limit inline lo hi l1 x l2 root seq ov' kvs :
  n_leaf n = true -> n_inodes n = l1 ++ [x] ++ l2 ->
  plain_flags l1 -> plain_flags l2 ->
  i_flags x < 2^32 -> N.odd (i_flags x) = true ->
  i_val x = bucket_header_value root seq -> root <> 0 -> root < 2^64 -> seq < 2^64 ->
  pg < 2^64 -> ov < 2^32 -> size n < 2^32 ->
  write n pg ov = Ok img ->
  N.of_nat (length pre) + size n <= limit ->
  ov' < 2^32 -> N.of_nat (length kvs) < 65536 ->
  N.of_nat (length (enc_leaf_page_ov root ov' kvs)) < 2^32 ->
  strictly_inc (map fst kvs) = true ->
  N.of_nat (length (pre ++ img ++ pad)) = root * ps ->
  N.of_nat (length (enc_leaf_page_ov root ov' kvs)) <= (ov' + 1) * ps ->
  dec_page (rd_of (pre ++ img ++ pad ++ enc_leaf_page_ov root ov' kvs ++ post)) ps (S (S f)) (N.of_nat (length pre)) limit inline lo hi =
  Some {| r_ents := plain_ents l1 ++ [(i_key x, Sub seq (map (fun kv => (fst kv, Val (snd kv))) kvs))] ++ plain_ents l2;
          r_pages := (if inline then [] else [(pg, ov, leaf_page_flag)]) ++ [(root, ov', leaf_page_flag)];
          r_order := key_order lo hi (keys_of (n_inodes n));
          r_bounds := true |}.
Proof.
  intros Hleaf E H1 H2 Hx Hodd Hv Hnz Hroot Hseq Hpg Hov Hsz Hw Hlim Hov' Hc H32 Hinc Hoff Hfit.
  set (d := {| r_ents := map (fun kv : bytes * bytes => (fst kv, Val (snd kv))) kvs; r_pages := [(root, ov', leaf_page_flag)];
               r_order := true; r_bounds := true |}).
  rewrite (leaf_one_bucket ps (S f) n pg ov img pre (pad ++ enc_leaf_page_ov root ov' kvs ++ post) limit inline lo hi l1 x l2
             (i_key x) (Sub seq (r_ents d)) (r_pages d) (r_order d) (r_bounds d)
             Hleaf E H1 H2 Hx Hpg Hov Hsz Hw Hlim); [cbn [r_order d]; now rewrite andb_true_r|].
  apply (er_paged _ _ _ x root seq d Hodd Hv Hnz Hroot Hseq).
  replace (pre ++ img ++ pad ++ enc_leaf_page_ov root ov' kvs ++ post)
    with ((pre ++ img ++ pad) ++ enc_leaf_page_ov root ov' kvs ++ post) by now rewrite <- !app_assoc.
  now apply paged_root_dec.
Qed.

Print Assumptions paged_bucket_spec_roundtrip.

(** * examples (page size 256): the hypotheses are satisfiable and the decoder computes what the theorems say *)
Definition ex_in_m : node :=
  {| n_leaf := true; n_unbal := false;
     n_inodes := [ {| i_flags := 0; i_key := [10]; i_val := [11]; i_pgid := 0 |};
                   {| i_flags := 0; i_key := [20]; i_val := [21; 22]; i_pgid := 0 |} ] |}.
Definition ex_in_val : list N := match bucket_write 7 ex_in_m with Ok v => v | _ => [] end.
Definition ex_in_x : inode := {| i_flags := bucket_leaf_flag; i_key := [5]; i_val := ex_in_val; i_pgid := 0 |}.
Definition ex_in_p : inode := {| i_flags := 0; i_key := [1]; i_val := [2; 3]; i_pgid := 0 |}.
Definition ex_in_n : node := {| n_leaf := true; n_unbal := false; n_inodes := [ex_in_p; ex_in_x] |}.
Definition ex_in_img : list N := match write ex_in_n 2 0 with Ok b => b | _ => [] end.

(** the value of the inline bucket: root 0, sequence 7, then the root leaf as a page with id 0 *)
Example ex_inline_value_bytes :
  ex_in_val =
  [0;0;0;0;0;0;0;0; 7;0;0;0;0;0;0;0;                          (* bucket header: root 0, sequence 7 *)
   0;0;0;0;0;0;0;0; 2;0; 2;0; 0;0;0;0;                         (* page header: id 0, leaf, count 2, overflow 0 *)
   0;0;0;0; 32;0;0;0; 1;0;0;0; 1;0;0;0;                        (* flags 0, pos 32, ksize 1, vsize 1 *)
   0;0;0;0; 18;0;0;0; 1;0;0;0; 2;0;0;0;                        (* flags 0, pos 18, ksize 1, vsize 2 *)
   10; 11; 20; 21;22].
Proof. vm_compute. reflexivity. Qed.

(** parent leaf at page 2 of a file with page size 256: one plain element, one inline bucket with two keys;
    the hypotheses of the theorem hold for this node *)
Example ex_inline_by_theorem :
  dec_page (rd_of (repeat 0 512 ++ ex_in_img ++ repeat 0 100)) 256 2 512 768 false None None
  = Some {| r_ents := plain_ents [ex_in_p] ++ [([5], Sub 7 (plain_ents (n_inodes ex_in_m)))] ++ plain_ents [];
            r_pages := [(2, 0, leaf_page_flag)];
            r_order := key_order None None (keys_of (n_inodes ex_in_n)) && key_order None None (keys_of (n_inodes ex_in_m));
            r_bounds := true |}.
Proof.
  apply (inline_bucket_roundtrip 256 0 ex_in_n 2 0 ex_in_img (repeat 0 512) (repeat 0 100) 768 false None None
           [ex_in_p] ex_in_x [] 7 ex_in_m); try reflexivity.
  - repeat constructor.
  - constructor.
  - repeat constructor.
  - vm_compute. discriminate.
Qed.

Example ex_inline_decodes :
  dec_page (rd_of (repeat 0 512 ++ ex_in_img ++ repeat 0 100)) 256 2 512 768 false None None
  = Some {| r_ents := [([1], Val [2; 3]); ([5], Sub 7 [([10], Val [11]); ([20], Val [21; 22])])];
            r_pages := [(2, 0, leaf_page_flag)]; r_order := true; r_bounds := true |}.
Proof. rewrite ex_inline_by_theorem. reflexivity. Qed.

(** one level only: fuel 1 is not enough to enter the inline bucket *)
Example ex_inline_needs_fuel_2 :
  dec_page (rd_of (repeat 0 512 ++ ex_in_img ++ repeat 0 100)) 256 1 512 768 false None None = None.
Proof. vm_compute. reflexivity. Qed.

(** any even flag value is a plain element, any odd one a bucket: the reader only tests the low bit *)
Example ex_even_flag_plain :
  match write {| n_leaf := true; n_unbal := false;
                 n_inodes := [ {| i_flags := 4; i_key := [1]; i_val := [2; 3]; i_pgid := 0 |} ] |} 2 0 with
  | Ok b => dec_page (rd_of (repeat 0 512 ++ b)) 256 1 512 768 false None None
            = Some {| r_ents := [([1], Val [2; 3])]; r_pages := [(2, 0, leaf_page_flag)]; r_order := true; r_bounds := true |}
  | _ => False end.
Proof. vm_compute. reflexivity. Qed.

(** a paged bucket: parent leaf at page 2, the bucket's root leaf at page 3 *)
Definition ex_pg_x : inode := {| i_flags := bucket_leaf_flag; i_key := [5]; i_val := bucket_header_value 3 9; i_pgid := 0 |}.
Definition ex_pg_n : node := {| n_leaf := true; n_unbal := false; n_inodes := [ex_in_p; ex_pg_x] |}.
Definition ex_pg_img : list N := match write ex_pg_n 2 0 with Ok b => b | _ => [] end.
Definition ex_pg_file : list N :=
  repeat 0 512 ++ ex_pg_img ++ repeat 0 (256 - length ex_pg_img) ++ enc_leaf_page_ov 3 0 [([10], [11]); ([20], [21; 22])] ++ [].

Example ex_paged_by_theorem :
  dec_page (rd_of ex_pg_file) 256 2 512 768 false None None
  = Some {| r_ents := plain_ents [ex_in_p] ++ [([5], Sub 9 (map (fun kv => (fst kv, Val (snd kv))) [([10], [11]); ([20], [21; 22])]))] ++ plain_ents [];
            r_pages := [(2, 0, leaf_page_flag)] ++ [(3, 0, leaf_page_flag)];
            r_order := key_order None None (keys_of (n_inodes ex_pg_n));
            r_bounds := true |}.
Proof.
  apply (paged_bucket_spec_roundtrip 256 0 ex_pg_n 2 0 ex_pg_img (repeat 0 512) (repeat 0 (256 - length ex_pg_img)) [] 768 false None None
           [ex_in_p] ex_pg_x [] 3 9 0 [([10], [11]); ([20], [21; 22])]); try reflexivity.
  - repeat constructor.
  - constructor.
  - discriminate.
  - vm_compute. discriminate.
  - vm_compute. discriminate.
Qed.

Example ex_paged_decodes :
  dec_page (rd_of ex_pg_file) 256 2 512 768 false None None
  = Some {| r_ents := [([1], Val [2; 3]); ([5], Sub 9 [([10], Val [11]); ([20], Val [21; 22])])];
            r_pages := [(2, 0, leaf_page_flag); (3, 0, leaf_page_flag)]; r_order := true; r_bounds := true |}.
Proof. rewrite ex_paged_by_theorem. reflexivity. Qed.

(** a mixture in one leaf (the general theorem [leaf_buckets_roundtrip] covers it): plain, inline bucket, paged bucket,
    plain with flag 2; the inline bucket contributes no page, the paged one its root page 3 *)
Definition ex_mix_n : node :=
  {| n_leaf := true; n_unbal := false;
     n_inodes := [ex_in_p; ex_in_x; {| i_flags := 1; i_key := [6]; i_val := bucket_header_value 3 9; i_pgid := 0 |};
                  {| i_flags := 2; i_key := [8]; i_val := []; i_pgid := 0 |}] |}.
Definition ex_mix_img : list N := match write ex_mix_n 2 0 with Ok b => b | _ => [] end.
Example ex_mixture_decodes :
  dec_page (rd_of (repeat 0 512 ++ ex_mix_img ++ repeat 0 (256 - length ex_mix_img)
                   ++ enc_leaf_page_ov 3 0 [([10], [11]); ([20], [21; 22])])) 256 2 512 768 false None None
  = Some {| r_ents := [([1], Val [2; 3]); ([5], Sub 7 [([10], Val [11]); ([20], Val [21; 22])]);
                       ([6], Sub 9 [([10], Val [11]); ([20], Val [21; 22])]); ([8], Val [])];
            r_pages := [(2, 0, leaf_page_flag); (3, 0, leaf_page_flag)]; r_order := true; r_bounds := true |}.
Proof.
  set (kvs := [([10], [11]); ([20], [21; 22])]). set (pad := repeat 0 (256 - length ex_mix_img)).
  set (d := {| r_ents := map (fun kv : bytes * bytes => (fst kv, Val (snd kv))) kvs; r_pages := [(3, 0, leaf_page_flag)];
               r_order := true; r_bounds := true |}).
  rewrite <- (app_nil_r (enc_leaf_page_ov 3 0 kvs)).
  etransitivity; [apply (leaf_buckets_roundtrip 256 1 ex_mix_n 2 0 ex_mix_img (repeat 0 512) (pad ++ enc_leaf_page_ov 3 0 kvs ++ []) 768 false None None
             [plain_res ex_in_p;
              ([5], Sub 7 (plain_ents (n_inodes ex_in_m)), [], key_order None None (keys_of (n_inodes ex_in_m)), true);
              ([6], Sub 9 (r_ents d), r_pages d, r_order d, r_bounds d);
              plain_res {| i_flags := 2; i_key := [8]; i_val := []; i_pgid := 0 |}]) | reflexivity]; try reflexivity.
  - repeat constructor.
  - vm_compute. discriminate.
  - constructor; [now apply er_plain|]. constructor; [apply (er_inline _ _ _ ex_in_x 7 ex_in_m 0); try reflexivity; repeat constructor|].
    constructor; [|repeat constructor]. apply (er_paged _ _ _ {| i_flags := 1; i_key := [6]; i_val := bucket_header_value 3 9; i_pgid := 0 |} 3 9 d);
      [reflexivity | reflexivity | discriminate | reflexivity | reflexivity |].
    replace (repeat 0 512 ++ ex_mix_img ++ pad ++ enc_leaf_page_ov 3 0 kvs ++ [])
      with ((repeat 0 512 ++ ex_mix_img ++ pad) ++ enc_leaf_page_ov 3 0 kvs ++ []) by now rewrite <- !app_assoc.
    apply (paged_root_dec 256 0 3 0 kvs); vm_compute; (reflexivity || discriminate).
Qed.

Print Assumptions key_order_true_iff.
Print Assumptions key_order_none.
