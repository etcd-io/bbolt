(** C17: what Open and Close do with flock (Lock.v): a read-write open is the only live open. *)
From Bbolt Require Import Base Lock.

Lemma compatible_rw held : compatible RW held = true -> held = [].
Proof. destruct held; [reflexivity | discriminate]. Qed.

Lemma compatible_ro held : compatible RO held = true -> forall id, ~ In (id, RW) held.
Proof.
  unfold compatible. rewrite forallb_forall. intros H id Hin. specialize (H _ Hin). discriminate.
Qed.

(** while a database is open read-write no other open succeeds; read-only opens coexist and exclude read-write *)
Theorem lstep_exclusive held o : exclusive_ok held -> exclusive_ok (fst (lstep held o)).
Proof.
  intros E. destruct o as [id m|id]; cbn [lstep].
  - destruct (compatible m held) eqn:C; [|exact E]. cbn [fst]. destruct m.
    + rewrite (compatible_rw _ C). intros id' [[= <-] | []]. reflexivity.
    + intros id' Hin. apply in_app_iff in Hin. destruct Hin as [Hin | [[=] | []]]. destruct (compatible_ro _ C _ Hin).
  - destruct (existsb (fun h => fst h =? id) held); [|exact E]. cbn [fst]. intros id' Hin. apply filter_In in Hin. destruct Hin as [Hin Hne].
    rewrite (E id' Hin). cbn in *. destruct (id' =? id); [discriminate | reflexivity].
Qed.

Theorem lrun_exclusive os : forall held, exclusive_ok held -> exclusive_ok (fst (lrun held os)).
Proof.
  induction os as [|o os IH]; intros held E; [exact E|]. cbn [lrun].
  specialize (IH _ (lstep_exclusive held o E)). destruct (lstep held o) as [h1 x]. cbn [fst] in IH. destruct (lrun h1 os). exact IH.
Qed.

Lemma open_ok_iff held id m : snd (lstep held (LOpen id m)) = LOk <-> compatible m held = true.
Proof. cbn [lstep]. destruct (compatible m held); split; (reflexivity || discriminate). Qed.

(** a read-write open succeeds only when nobody holds the file; a read-only open only when no writer does *)
Theorem open_rw_needs_nobody held id : snd (lstep held (LOpen id RW)) = LOk -> held = [].
Proof. intros H. apply open_ok_iff, compatible_rw in H. exact H. Qed.

Theorem open_ro_needs_no_writer held id : snd (lstep held (LOpen id RO)) = LOk -> forall w, ~ In (w, RW) held.
Proof. intros H. apply compatible_ro, (open_ok_iff held id), H. Qed.

Theorem close_releases held id : forall m, ~ In (id, m) (fst (lstep held (LClose id))).
Proof.
  intros m. cbn [lstep]. destruct (existsb (fun h => fst h =? id) held) eqn:E; cbn [fst]; intros H.
  - apply filter_In in H. destruct H as [_ H]. cbn in H. rewrite N.eqb_refl in H. discriminate.
  - apply not_true_iff_false in E. apply E, existsb_exists. exists (id, m). split; [exact H | apply N.eqb_refl].
Qed.
