(** Proofs about Freelist.v (the allocator model): association lists, the pending map, Free and
    serialisation. *)
From Bbolt Require Import Base BaseProofs Freelist.
From Coq Require Import Sorting.Permutation.

(** the invariant Freelist.v notes on [pending] and [allocs] *)
Definition keys_unique {A} (l : list (N * A)) : Prop := NoDup (map fst l).

Lemma alookup_in {A} k (l : list (N * A)) v : alookup k l = Some v -> In (k, v) l.
Proof.
  induction l as [|[k0 v0] l IH]; cbn [alookup]; [discriminate|].
  destruct (N.eqb_spec k k0) as [->|Hne]; intros H.
  - inversion H. now left.
  - right. auto.
Qed.

Lemma alookup_none_iff {A} k (l : list (N * A)) : alookup k l = None <-> ~ In k (map fst l).
Proof.
  induction l as [|[k0 v0] l IH]; cbn [alookup map fst In]; [tauto|].
  destruct (N.eqb_spec k k0) as [->|Hne]; [split; [discriminate | tauto]|].
  rewrite IH. intuition congruence.
Qed.

Lemma alookup_app_none {A} k (l l' : list (N * A)) : alookup k l = None -> alookup k (l ++ l') = alookup k l'.
Proof.
  induction l as [|[k0 v0] l IH]; [reflexivity|]. cbn [app alookup].
  destruct (k =? k0); [discriminate | exact IH].
Qed.

Lemma keys_unique_filter {A} (f : N * A -> bool) (l : list (N * A)) :
  keys_unique l -> keys_unique (filter f l).
Proof.
  unfold keys_unique. induction l as [|e l IH]; [tauto|]. cbn [map filter]. intros H.
  inversion H as [|? ? Hn Hu]; subst. destruct (f e); [|now apply IH].
  cbn [map]. constructor; [|now apply IH]. intros Hin. apply Hn.
  apply in_map_iff in Hin. destruct Hin as [e' [E Hin]]. apply filter_In in Hin.
  apply in_map_iff. exists e'. tauto.
Qed.

Lemma keys_unique_flat_map {A} (k : N * A -> list (N * A)) l :
  (forall e, k e = [] \/ exists y, k e = [(fst e, y)]) -> keys_unique l -> keys_unique (flat_map k l).
Proof.
  intros Hk. unfold keys_unique.
  replace (map fst (flat_map k l)) with (map fst (filter (fun e => match k e with [] => false | _ => true end) l));
    [apply keys_unique_filter|].
  induction l as [|e l IH]; [reflexivity|]. cbn [flat_map filter]. rewrite map_app, <- IH.
  destruct (Hk e) as [->|[y ->]]; reflexivity.
Qed.

Lemma aremove_filter {A} k (l : list (N * A)) : aremove k l = filter (fun e => negb (k =? fst e)) l.
Proof.
  induction l as [|[k0 v] l IH]; [reflexivity|]. cbn [aremove filter fst].
  destruct (k =? k0); cbn [negb]; now rewrite IH.
Qed.

Lemma in_aremove {A} k (l : list (N * A)) e : In e (aremove k l) <-> In e l /\ fst e <> k.
Proof.
  rewrite aremove_filter, filter_In, negb_true_iff, N.eqb_neq. split; intros [H1 H2]; split; congruence.
Qed.

Lemma aremove_app {A} k (l l' : list (N * A)) : aremove k (l ++ l') = aremove k l ++ aremove k l'.
Proof. rewrite !aremove_filter. apply filter_app. Qed.

Lemma keys_unique_aremove {A} k (l : list (N * A)) : keys_unique l -> keys_unique (aremove k l).
Proof. rewrite aremove_filter. apply keys_unique_filter. Qed.

Lemma aremove_notin {A} k (l : list (N * A)) : alookup k l = None -> aremove k l = l.
Proof.
  rewrite alookup_none_iff, aremove_filter. intros H. apply filter_id. intros e He.
  apply negb_true_iff, N.eqb_neq. intros ->. apply H, in_map, He.
Qed.

Lemma alookup_aremove_ne {A} k k' (l : list (N * A)) : k <> k' -> alookup k (aremove k' l) = alookup k l.
Proof.
  intros Hne. induction l as [|[k0 v] l IH]; simpl; [reflexivity|].
  destruct (N.eqb_spec k' k0); simpl.
  - subst. destruct (N.eqb_spec k k0); [congruence | exact IH].
  - destruct (N.eqb_spec k k0); [reflexivity | exact IH].
Qed.

Lemma alookup_aremove_eq {A} k (l : list (N * A)) : alookup k (aremove k l) = None.
Proof. apply alookup_none_iff. intros H. apply in_map_iff in H. destruct H as [e [E H]]. apply in_aremove in H. tauto. Qed.

Lemma alookup_aset {A} p k (v : A) l : alookup p (aset k v l) = if p =? k then Some v else alookup p l.
Proof.
  unfold aset. cbn [alookup]. destruct (N.eqb_spec p k) as [->|Hne]; [reflexivity|].
  now apply alookup_aremove_ne.
Qed.

Lemma keys_unique_aset {A} k (v : A) (l : list (N * A)) : keys_unique l -> keys_unique (aset k v l).
Proof.
  intros H. unfold aset, keys_unique. cbn [map fst]. constructor; [|now apply keys_unique_aremove].
  intros Hin. apply in_map_iff in Hin. destruct Hin as [e [E Hin]]. apply in_aremove in Hin. tauto.
Qed.

(** What Free does to the pending map: the entry of [k] is replaced in place, or appended. *)
Definition aput {A} (k : N) (v : A) (l : list (N * A)) : list (N * A) :=
  match alookup k l with
  | Some _ => map (fun e => if fst e =? k then (k, v) else e) l
  | None => l ++ [(k, v)]
  end.

Lemma alookup_aput {A} k (v : A) l : alookup k (aput k v l) = Some v.
Proof.
  unfold aput. destruct (alookup k l) eqn:E.
  - induction l as [|[k0 v0] l IH]; cbn [alookup map fst] in *; [discriminate|].
    destruct (N.eqb_spec k k0) as [->|Hne].
    + rewrite N.eqb_refl. cbn [alookup]. now rewrite N.eqb_refl.
    + destruct (N.eqb_spec k0 k); [congruence|]. cbn [alookup].
      destruct (N.eqb_spec k k0); [congruence | auto].
  - rewrite alookup_app_none by exact E. cbn [alookup]. now rewrite N.eqb_refl.
Qed.

Lemma aremove_aput {A} k (v : A) l : aremove k (aput k v l) = aremove k l.
Proof.
  unfold aput. destruct (alookup k l).
  - induction l as [|[k0 v0] l IH]; [reflexivity|]. cbn [map fst].
    destruct (N.eqb_spec k0 k) as [->|Hne]; cbn [aremove].
    + rewrite N.eqb_refl. exact IH.
    + destruct (N.eqb_spec k k0); [congruence|]. now rewrite IH.
  - rewrite aremove_app. cbn [aremove]. rewrite N.eqb_refl. apply app_nil_r.
Qed.

Lemma keys_unique_aput {A} k (v : A) l : keys_unique l -> keys_unique (aput k v l).
Proof.
  unfold aput, keys_unique. destruct (alookup k l) eqn:E; intros H.
  - replace (map fst (map _ l)) with (map fst l); [exact H|]. rewrite map_map. apply map_ext.
    intros e. destruct (N.eqb_spec (fst e) k) as [<-|]; reflexivity.
  - rewrite map_app. apply (Permutation_NoDup (Permutation_cons_append _ _)).
    constructor; [now apply alookup_none_iff | exact H].
Qed.

Lemma pending_ids_app a b : pending_ids (a ++ b) = pending_ids a ++ pending_ids b.
Proof. apply flat_map_app. Qed.

Lemma pend_pairs_app a b : pend_pairs (a ++ b) = pend_pairs a ++ pend_pairs b.
Proof. apply flat_map_app. Qed.

Lemma pending_ids_cons e l : pending_ids (e :: l) = map fst (t_ids (snd e)) ++ pending_ids l.
Proof. reflexivity. Qed.

Lemma pend_pairs_cons e l :
  pend_pairs (e :: l) = map (fun pa => (fst e, fst pa, snd pa)) (t_ids (snd e)) ++ pend_pairs l.
Proof. reflexivity. Qed.

Lemma pend_pairs_ids p : map (fun t => snd (fst t)) (pend_pairs p) = pending_ids p.
Proof.
  induction p as [|e p IH]; [reflexivity|].
  rewrite pend_pairs_cons, pending_ids_cons, map_app, IH, map_map. reflexivity.
Qed.

Lemma in_pend_pairs t pg a p :
  In (t, pg, a) (pend_pairs p) <-> exists e, In e p /\ fst e = t /\ In (pg, a) (t_ids (snd e)).
Proof.
  unfold pend_pairs. rewrite in_flat_map. split; intros [e [He H]]; exists e; (split; [exact He|]).
  - apply in_map_iff in H. destruct H as [[pg' a'] [[= <- <- <-] H]]. now split.
  - destruct H as [<- H]. apply in_map_iff. now exists (pg, a).
Qed.

Lemma pending_ids_in pg p : In pg (pending_ids p) <-> exists tid a, In (tid, pg, a) (pend_pairs p).
Proof.
  rewrite <- pend_pairs_ids, in_map_iff. split.
  - intros [[[tid pg'] a] [E H]]. cbn in E. subst. eauto.
  - intros [tid [a H]]. exists (tid, pg, a). split; [reflexivity | exact H].
Qed.

(** What shared.Free reads before it appends: [t.pending[txid]], made empty when absent ([aget]), the pairs of
    its [ids] and [alloctx] ([tids]), and [t.allocs[id]], 0 when the allocating transaction is not known ([atxof]). *)
Definition aget (k : N) (l : list (N * txp)) : txp :=
  match alookup k l with Some t => t | None => {| t_ids := []; t_lrb := 0 |} end.
Definition tids (txid : N) (s : fl) : list (N * N) := t_ids (aget txid (pending s)).
Definition atxof (id : N) (al : list (N * N)) : N :=
  match alookup id al with Some a => a | None => 0 end.

Lemma tids_some txid s t : alookup txid (pending s) = Some t -> tids txid s = t_ids t.
Proof. unfold tids, aget. now intros ->. Qed.

Lemma tids_none txid s : alookup txid (pending s) = None -> tids txid s = [].
Proof. unfold tids, aget. now intros ->. Qed.

Definition refused (id ov : N) (s : fl) : Prop :=
  id <= 1 \/ exists x, In x (run id (ov + 1)) /\ In x (cache s).

Definition free_result (txid id ov : N) (s : fl) : fl :=
  {| free := free s;
     pending := aput txid {| t_ids := tids txid s ++ map (fun x => (x, atxof id (allocs s))) (run id (ov + 1));
                             t_lrb := t_lrb (aget txid (pending s)) |} (pending s);
     allocs := aremove id (allocs s); readers := readers s |}.

Lemma free_page_spec txid id ov s :
  (refused id ov s /\ free_page txid id ov s = Panic) \/
  (~ refused id ov s /\ free_page txid id ov s = Ok (free_result txid id ov s)).
Proof.
  assert (Hex : existsb (fun x => memN x (cache s)) (run id (ov + 1)) = true <->
                exists x, In x (run id (ov + 1)) /\ In x (cache s))
    by (rewrite existsb_exists; now setoid_rewrite memN_in).
  unfold free_page, refused. destruct (N.leb_spec id 1) as [Hle|Hgt]; [left; split; [now left | reflexivity]|].
  destruct (existsb _ _); [left | right]; (split; [|reflexivity]).
  - right. now apply Hex.
  - intros [H|H]; [lia | apply Hex in H; discriminate].
Qed.

Lemma free_page_ok txid id ov s s' :
  free_page txid id ov s = Ok s' -> s' = free_result txid id ov s /\ ~ refused id ov s.
Proof.
  destruct (free_page_spec txid id ov s) as [[_ E]|[Hn E]]; rewrite E; [discriminate|].
  intros [= <-]. now split.
Qed.

(** Free refuses (panics) on meta pages and on pages already free or pending: the guard the code has. *)
Theorem free_page_guard txid id ov s :
  (id <= 1 \/ exists x, In x (run id (ov + 1)) /\ In x (cache s)) <-> free_page txid id ov s = Panic.
Proof.
  destruct (free_page_spec txid id ov s) as [[Hr E]|[Hn E]]; rewrite E.
  - split; [reflexivity | intros _; exact Hr].
  - split; [intros H; destruct (Hn H) | discriminate].
Qed.

(** Free never makes a page directly reusable: the free list is untouched.  (That the run [id .. id+ov] goes to the
    pending list of [txid] is [free_page_tids] and [free_page_pending].) *)
Theorem free_page_free_unchanged txid id ov s s' :
  free_page txid id ov s = Ok s' -> free s' = free s /\ readers s' = readers s.
Proof. intros H. apply free_page_ok in H as [-> _]. split; reflexivity. Qed.

Lemma free_page_allocs txid id ov s s' : free_page txid id ov s = Ok s' -> allocs s' = aremove id (allocs s).
Proof. intros H. now apply free_page_ok in H as [-> _]. Qed.

Lemma free_page_fresh txid id ov s s' :
  free_page txid id ov s = Ok s' -> forall x, In x (run id (ov + 1)) -> ~ In x (cache s).
Proof. intros H x Hx Hc. apply free_page_ok in H as [_ Hn]. apply Hn. right. eauto. Qed.

Lemma free_page_others txid id ov s s' :
  free_page txid id ov s = Ok s' -> aremove txid (pending s') = aremove txid (pending s).
Proof. intros H. apply free_page_ok in H as [-> _]. apply aremove_aput. Qed.

Lemma free_page_tids txid id ov s s' : free_page txid id ov s = Ok s' ->
  tids txid s' = tids txid s ++ map (fun x => (x, atxof id (allocs s))) (run id (ov + 1)).
Proof.
  intros H. apply free_page_ok in H as [-> _]. unfold tids at 1, aget. cbn [pending free_result].
  now rewrite alookup_aput.
Qed.

Lemma free_page_keys_unique txid id ov s s' : free_page txid id ov s = Ok s' ->
  keys_unique (pending s) -> keys_unique (pending s').
Proof. intros H. apply free_page_ok in H as [-> _]. apply keys_unique_aput. Qed.

Lemma pending_ids_aput k v l : keys_unique l ->
  Permutation (map fst (t_ids (aget k l)) ++ pending_ids (aput k v l)) (map fst (t_ids v) ++ pending_ids l).
Proof.
  unfold aget, aput. destruct (alookup k l) as [old|] eqn:E; intros Hu.
  - induction l as [|[k0 v0] l IH]; cbn [alookup map fst] in *; [discriminate|].
    inversion Hu as [|? ? Hnotin Hu']; subst. rewrite !pending_ids_cons. cbn [snd].
    destruct (N.eqb_spec k k0) as [->|Hne].
    + injection E as ->. rewrite N.eqb_refl. cbn [snd].
      replace (map _ l) with l; [apply Permutation_app_swap_app|].
      rewrite <- (map_id l) at 1. apply map_ext_in. intros e He.
      destruct (N.eqb_spec (fst e) k0) as [<-|]; [|reflexivity]. exfalso. apply Hnotin, in_map, He.
    + destruct (N.eqb_spec k0 k); [congruence|]. cbn [snd].
      rewrite Permutation_app_swap_app, (IH E Hu'). apply Permutation_app_swap_app.
  - rewrite pending_ids_app. unfold pending_ids at 2. cbn [t_ids map app flat_map snd].
    rewrite app_nil_r. apply Permutation_app_comm.
Qed.

(** Free moves exactly the run to pending (as multisets), whatever was pending before. *)
Theorem free_page_pending txid id ov s s' :
  keys_unique (pending s) ->
  free_page txid id ov s = Ok s' ->
  Permutation (pending_ids (pending s')) (pending_ids (pending s) ++ run id (ov + 1)).
Proof.
  intros Hu H. apply free_page_ok in H as [-> _]. cbn [pending free_result].
  apply (Permutation_app_inv_l (map fst (tids txid s))). unfold tids at 1.
  rewrite (pending_ids_aput _ _ _ Hu). cbn [t_ids]. rewrite map_app, map_fst_pair, <- app_assoc.
  apply Permutation_app_head, Permutation_app_comm.
Qed.

Lemma copyall_length s : length (copyall s) = N.to_nat (count s).
Proof.
  unfold copyall, count, free_count, pending_count.
  rewrite mergeN_length, sortN_length. lia.
Qed.

Lemma copyall_perm s : Permutation (cache s) (copyall s).
Proof.
  unfold copyall, cache. rewrite <- mergeN_perm. apply Permutation_app_head, sortN_perm.
Qed.

(** Read(Write s) recovers exactly the sorted free+pending list, for EVERY length - including the
    0xFFFF-count convention: [count s] is an arbitrary N. *)
Theorem read_write_roundtrip s : read_ids (write_img s) = copyall s.
Proof.
  unfold write_img, read_ids.
  pose proof (copyall_length s) as HL.
  destruct (N.eqb_spec (count s) 0) as [E0|N0].
  - simpl. rewrite E0 in HL. simpl in HL. destruct (copyall s); [reflexivity | discriminate].
  - destruct (N.ltb_spec (count s) 65535) as [Hlt|Hge].
    + destruct (N.eqb_spec (count s) 65535); [lia|]. rewrite <- HL. apply firstn_all.
    + simpl. rewrite <- HL. apply firstn_all.
Qed.

Corollary read_write_set s x : In x (read_ids (write_img s)) <-> In x (free s) \/ In x (pending_ids (pending s)).
Proof.
  rewrite read_write_roundtrip. rewrite <- in_app_iff. fold (cache s).
  split; apply Permutation_in; [symmetry|]; apply copyall_perm.
Qed.

(** EstimatedWritePageSize never underestimates what Write touches (16-byte header + 8 bytes per u64 written). *)
Theorem estimate_sufficient s :
  16 + 8 * N.of_nat (length (snd (write_img s))) <= estimated_write_size s.
Proof.
  unfold write_img, estimated_write_size.
  pose proof (copyall_length s) as HL.
  destruct (N.eqb_spec (count s) 0) as [E0|N0]; cbn [snd length].
  - lia.
  - destruct (N.ltb_spec (count s) 65535) as [Hlt|Hge]; cbn [snd length].
    + rewrite HL, N2Nat.id. destruct (N.leb_spec 65535 (count s)); lia.
    + rewrite HL. destruct (N.leb_spec 65535 (count s)); lia.
Qed.
