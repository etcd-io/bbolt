(** C18: the file never grows beyond MaxSize (when the map was not inflated by InitialMmapSize). *)
From Bbolt Require Import Base Consts Grow.

Lemma mm_loop_ge n : forall i size r, mm_loop n i size = Some r -> size <= r.
Proof.
  induction n as [|n IH]; intros i size r H; simpl in H; [discriminate|].
  destruct (N.leb_spec size (2 ^ i)); [inversion H; subst; assumption | eauto].
Qed.

Lemma mm_loop_mono n : forall i s1 s2 r1 r2, s1 <= s2 ->
  mm_loop n i s1 = Some r1 -> mm_loop n i s2 = Some r2 -> r1 <= r2.
Proof.
  induction n as [|n IH]; intros i s1 s2 r1 r2 Hle H1 H2; simpl in *; [discriminate|].
  destruct (N.leb_spec s1 (2 ^ i)); destruct (N.leb_spec s2 (2 ^ i)).
  - inversion H1; inversion H2; subst. lia.
  - inversion H1; subst. apply mm_loop_ge in H2. lia.
  - lia.
  - eauto.
Qed.

Lemma round_up_ge ps size : 0 < ps -> size <= max_map_size -> size <= round_up ps size.
Proof.
  intros Hps Hle. unfold round_up.
  set (sz1 := if 0 <? size mod max_mmap_step then _ else size).
  assert (H1 : size <= sz1) by (unfold sz1; destruct (0 <? size mod max_mmap_step); [apply N.le_add_r | reflexivity]).
  set (sz2 := if negb (sz1 mod ps =? 0) then _ else sz1).
  assert (H2 : sz1 <= sz2).
  { unfold sz2. destruct (sz1 mod ps =? 0); cbn [negb]; [reflexivity|].
    rewrite N.add_1_r, N.mul_comm. apply N.lt_le_incl, N.mul_succ_div_gt, N.neq_0_lt_0, Hps. }
  destruct (max_map_size <? sz2); [exact Hle | exact (N.le_trans _ _ _ H1 H2)].
Qed.

Theorem mmap_size_ge ps size r : 0 < ps -> mmap_size ps size = Some r -> size <= r.
Proof.
  intros Hps. unfold mmap_size. destruct (mm_loop 16 15 size) as [r0|] eqn:E.
  - intros H; injection H as <-. eapply mm_loop_ge; eauto.
  - destruct (N.ltb_spec max_map_size size) as [|Hle]; [discriminate|]. intros H. injection H as <-.
    apply round_up_ge; assumption.
Qed.

(** The MaxSize guarantee.  [minsz] is the size the last allocation of the transaction asked for (= what grow is
    called with), [M] the map size the pre-check computed for it, [datasz] the size of the map when grow runs.
    If the map was not inflated beyond what this database needs ([datasz <= M]) and the pre-check passed, the file
    after grow is within the limit, or was already that long. *)
Theorem grow_within_limit alloc maxsize minsz datasz filesz M :
  datasz <= M ->
  grow_size alloc M minsz <= maxsize ->
  grow alloc datasz filesz minsz <= N.max maxsize filesz.
Proof.
  unfold grow, grow_size. intros Hd Hc.
  destruct (N.leb_spec minsz filesz); [lia|].
  destruct (N.leb_spec M alloc); destruct (N.leb_spec datasz alloc); lia.
Qed.

(** without the hypothesis the statement is false (known finding D7): MaxSize 1 MiB, InitialMmapSize 8 MiB, page size
    4096, default AllocSize 16 MiB; a first allocation of 8 pages at mark 4 passes the pre-check, and grow then sizes
    the file to the inflated map *)
Definition grow_full_statement : Prop :=
  forall ps alloc maxsize mark count datasz filesz,
    0 < maxsize -> alloc_refused ps alloc maxsize mark count = Some false ->
    grow alloc datasz filesz ((mark + count + 1) * ps) <= N.max maxsize filesz.

Theorem grow_full_statement_refuted : ~ grow_full_statement.
Proof.
  intros H. specialize (H 4096 16777216 1048576 4 8 8388608 16384 ltac:(reflexivity) ltac:(reflexivity)).
  vm_compute in H. apply H. reflexivity.
Qed.

(** without grow-sync the file is exactly as long as the pages written: within the limit whenever the pre-check passed *)
Theorem grow_nosync_within_limit ps alloc maxsize mark count filesz M : 0 < ps ->
  mmap_size ps ((mark + count + 1) * ps) = Some M ->
  grow_size alloc M ((mark + count + 1) * ps) <= maxsize ->
  grow_nosync filesz ((mark + count) * ps) <= N.max maxsize filesz.
Proof.
  intros Hps HM Hc. unfold grow_nosync, grow_size in *. apply mmap_size_ge in HM; [|exact Hps].
  destruct (N.leb_spec M alloc); lia.
Qed.
