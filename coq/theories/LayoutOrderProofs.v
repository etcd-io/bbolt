(** LayoutOrderProofs: the order flag computed by the independent reader [Layout.dec_page] implies that the
    decoded entries are a sorted association list (in the sense of the reference map, [Spec.keys_sorted]),
    within the bounds passed down from the parent, at every nesting level. *)
From Bbolt Require Import Base Consts Spec SpecProofs Layout LayoutPageProofs LayoutBucketProofs.

(** p <= a, a < b  ->  p < b, hence in particular  not (b < p) *)
Lemma blt_le_lt_trans p a b : blt a p = false -> blt a b = true -> blt p b = true.
Proof. exact (SpecProofs.blt_le_lt_trans p a b). Qed.

Lemma opt_le_trans {lo a b} : opt_le lo a = true -> blt b a = false -> opt_le lo b = true.
Proof.
  destruct lo as [l|]; [|reflexivity]. cbn [opt_le]. rewrite !negb_true_iff. apply ble_trans.
Qed.

Lemma opt_lt_trans {a b hi} : blt a b = true -> opt_lt b hi = true -> opt_lt a hi = true.
Proof. destruct hi as [h|]; [|reflexivity]. cbn [opt_lt]. apply blt_trans. Qed.

Lemma keys_sorted_strictly_inc (l : list (bytes * entry)) : keys_sorted l = strictly_inc (map fst l).
Proof.
  induction l as [|[k e] l IH]; [reflexivity|].
  destruct l as [|[k' e'] l]; [reflexivity|].
  change (keys_sorted ((k, e) :: (k', e') :: l)) with (blt k k' && keys_sorted ((k', e') :: l)).
  rewrite IH. reflexivity.
Qed.

Lemma strictly_inc_cons {k r} : strictly_inc (k :: r) = true ->
  strictly_inc r = true /\ forall k', In k' r -> blt k k' = true.
Proof.
  revert k. induction r as [|k2 r IH]; intros k H.
  - split; [reflexivity|]. intros k' [].
  - change (strictly_inc (k :: k2 :: r)) with (blt k k2 && strictly_inc (k2 :: r)) in H.
    apply andb_true_iff in H. destruct H as [H1 H2]. split; [exact H2|].
    intros k' [E|I]; [now subst|]. destruct (IH _ H2) as [_ K]. eapply blt_trans; eauto.
Qed.

Lemma key_order_sorted {ents : list (bytes * entry)} {lo hi} : key_order lo hi (map fst ents) = true ->
  keys_sorted ents = true /\ forall k e, In (k, e) ents -> opt_le lo k = true /\ opt_lt k hi = true.
Proof.
  intros (SI & LO & HI)%key_order_true_iff. split; [now rewrite keys_sorted_strictly_inc|].
  intros k e I%(in_map fst). cbn [fst] in I. split; [|rewrite Forall_forall in HI; now apply HI].
  destruct (map fst ents) as [|k0 r]; [destruct I|]. destruct I as [<-|I]; [exact LO|].
  apply (opt_le_trans LO), blt_asym. now apply (strictly_inc_cons SI).
Qed.

Lemma mapM_Forall2 {A B} (f : A -> option B) (l : list A) : forall rs,
  mapM f l = Some rs -> Forall2 (fun a b => f a = Some b) l rs.
Proof.
  induction l as [|a l IH]; intros rs H; cbn [mapM] in H.
  - injection H as <-. constructor.
  - destruct (f a) as [b|] eqn:E; [|discriminate]. destruct (mapM f l) as [bs|]; [|discriminate].
    injection H as <-. constructor; [exact E | now apply IH].
Qed.

Lemma Forall2_In_r {A B} {P : A -> B -> Prop} {l rs} : Forall2 P l rs -> forall {b}, In b rs -> exists a, In a l /\ P a b.
Proof.
  induction 1 as [|a b l rs H _ IH]; intros b0 I; [destruct I|].
  destruct I as [<-|I]; [exists a; split; [now left | exact H]|].
  destruct (IH _ I) as (a0 & I0 & P0). exists a0. split; [now right | exact P0].
Qed.

Lemma Forall2_impl_In_r {A B} (P Q : A -> B -> Prop) l rs :
  Forall2 P l rs -> (forall a b, In b rs -> P a b -> Q a b) -> Forall2 Q l rs.
Proof.
  induction 1 as [|a b l rs H _ IH]; intros K; constructor.
  - apply K; [now left | exact H].
  - apply IH. intros a0 b0 I. apply K. now right.
Qed.

(** * sortedness at every nesting level *)
Definition sub_sorted (P : list (bytes * entry) -> bool) (ke : bytes * entry) : bool :=
  match snd ke with Val _ => true | Sub _ es => P es end.

Fixpoint all_sorted (fuel : nat) (ents : list (bytes * entry)) : bool :=
  match fuel with O => false | S f =>
    keys_sorted ents && forallb (sub_sorted (all_sorted f)) ents
  end.

Lemma all_sorted_S f ents : all_sorted (S f) ents = true <->
  keys_sorted ents = true /\ forall k s es, In (k, Sub s es) ents -> all_sorted f es = true.
Proof.
  cbn [all_sorted]. rewrite andb_true_iff, forallb_forall. split; intros [H1 H2]; (split; [exact H1|]).
  - intros k s es I. exact (H2 _ I).
  - intros [k [v|s es]] I; [reflexivity | exact (H2 _ _ _ I)].
Qed.

Lemma all_sorted_mono f : forall ents, all_sorted f ents = true -> all_sorted (S f) ents = true.
Proof.
  induction f as [|f IH]; intros ents H; [discriminate|].
  apply all_sorted_S in H. destruct H as [H1 H2]. apply all_sorted_S. split; [exact H1|].
  intros k s es I. exact (IH _ (H2 _ _ _ I)).
Qed.

Lemma all_sorted_keys {f ents} : all_sorted f ents = true -> keys_sorted ents = true.
Proof. destruct f; [discriminate|]. now intros [H _]%all_sorted_S. Qed.

(** what the order flag of a decoded page promises about its entries *)
Definition sorted_in (f : nat) (lo hi : option bytes) (ents : list (bytes * entry)) : Prop :=
  keys_sorted ents = true /\
  (forall k e, In (k, e) ents -> opt_le lo k = true /\ opt_lt k hi = true) /\
  all_sorted f ents = true.

Lemma sorted_in_above {f k h ents} : sorted_in f (Some k) h ents ->
  keys_sorted ents = true /\ forall k' e, In (k', e) ents -> blt k' k = false /\ opt_lt k' h = true.
Proof.
  intros (C1 & C2 & _). split; [exact C1|]. intros k' e I. destruct (C2 _ _ I) as [I1 I2].
  split; [now apply negb_true_iff | exact I2].
Qed.

(** * a branch page: concatenation of the children's entries, child [i] within [key i, key (i+1)) *)
Lemma branch_concat_sorted {X} f (kf : X -> bytes) hi : forall (xs : list X) (rs : list dres),
  strictly_inc (map kf xs) = true ->
  Forall (fun k => opt_lt k hi = true) (map kf xs) ->
  Forall2 (fun xh d => sorted_in f (Some (kf (fst xh))) (snd xh) (r_ents d))
          (combine xs (map Some (tl (map kf xs)) ++ [hi])) rs ->
  keys_sorted (flat_map r_ents rs) = true /\
  forall k' e, In (k', e) (flat_map r_ents rs) ->
    match map kf xs with [] => False | k0 :: _ => blt k' k0 = false end /\ opt_lt k' hi = true.
Proof.
  induction xs as [|x xs IH]; intros rs SI HI F.
  - cbn [map tl combine] in F. inversion F; subst. cbn [flat_map]. split; [reflexivity|]. intros k' e [].
  - destruct xs as [|x2 xs].
    + cbn [map tl combine app] in F. inversion F as [|a b l l' C F']; subst. inversion F'; subst.
      cbn [flat_map map]. rewrite app_nil_r. exact (sorted_in_above C).
    + cbn [map tl combine app] in F. inversion F as [|a b l rs' C F']; subst. clear F.
      apply sorted_in_above in C. destruct C as [C1 C2]. cbn [fst snd] in C2.
      cbn [map] in SI, HI. pose proof (strictly_inc_cons SI) as [SI' LT].
      apply Forall_cons_iff in HI as [HI0 HI'].
      destruct (IH rs' SI' HI' F') as [IH1 IH2]. cbn [map] in IH2.
      assert (blt (kf x) (kf x2) = true) as L12 by (apply LT; now left).
      cbn [flat_map map]. split.
      * apply keys_sorted_app. split; [exact C1|]. split; [exact IH1|]. intros k1 e1 k2 e2 I1 I2.
        apply blt_lt, (blt_lt_le_trans _ (kf x2)); [apply (C2 _ _ I1) | apply (IH2 _ _ I2)].
      * intros k' e [I|I]%in_app_or.
        -- destruct (C2 _ _ I) as [I1 I2]. split; [exact I1|].
           exact (opt_lt_trans I2 (Forall_inv HI')).
        -- destruct (IH2 _ _ I) as [I1 I2]. split; [|exact I2].
           apply blt_asym, (blt_lt_le_trans _ _ _ L12 I1).
Qed.

Section Order.
  Variable rd : N -> N.
  Variable ps : N.

  (** a decoded leaf element has the key the flag was computed from, and if it is a bucket, its content
      is a decoded page and its flag that page's *)
  Lemma elem_dec_inv f efl kp ks vs k e pg o bd : elem_dec rd ps f (efl, kp, ks, vs) = Some (k, e, pg, o, bd) ->
    k = rbytes rd (N.to_nat ks) kp /\
    match e with Val _ => True | Sub _ es => exists b l i d0,
      dec_page rd ps f b l i None None = Some d0 /\ es = r_ents d0 /\ o = r_order d0 end.
  Proof.
    unfold elem_dec. destruct (N.odd efl).
    - match goal with |- match ?X with _ => _ end = _ -> _ => destruct X as [d0|] eqn:ED; [|discriminate] end.
      intros [= <- <- _ <- _]. split; [reflexivity|]. destruct (u64 rd (kp + ks) =? 0); eauto 8.
    - intros [= <- <- _ _ _]. now split.
  Qed.

  Definition dec_ok (f : nat) : Prop := forall base limit inline lo hi d,
    dec_page rd ps f base limit inline lo hi = Some d -> r_order d = true -> sorted_in f lo hi (r_ents d).

  Lemma dec_ok_all : forall f, dec_ok f.
  Proof.
    induction f as [|f IH]; intros base limit inline lo hi d H O; [discriminate|].
    destruct (dec_page_flag _ _ _ _ _ _ _ _ _ H) as [E | [E ->]].
    - rewrite (dec_page_leaf_unfold _ _ _ _ _ _ _ _ E) in H. cbv zeta in H.
      destruct (mapM _ _) as [rs|] eqn:EM; [|discriminate]. injection H as <-. cbn [r_ents r_order leaf_res] in *.
      apply mapM_Forall2 in EM. rewrite key_order_spelled in O. apply andb_true_iff in O. destruct O as [KO O4].
      rewrite forallb_forall in O4.
      replace (map _ (leaf_elems _ _ _)) with (map fst (map (fun r : eres => let '(k, e, _, _, _) := r in (k, e)) rs)) in KO.
      2: { rewrite map_map. apply (Forall2_map_eq _ _ _ _ _ EM).
           intros [[[efl kp] ks] vs] [[[[k e] pg0] o] b] [-> _]%elem_dec_inv. reflexivity. }
      destruct (key_order_sorted KO) as [S1 S2]. split; [exact S1|]. split; [exact S2|].
      apply all_sorted_S. split; [exact S1|]. intros k s es ([[[[k1 e] pg0] o] b] & [= -> ->] & I)%in_map_iff.
      destruct (Forall2_In_r EM I) as ([[[efl kp] ks] vs] & _ & (_ & b0 & l & i & d0 & ED & -> & ->)%elem_dec_inv).
      apply (IH _ _ _ _ _ _ ED (O4 _ I)).
    - rewrite (dec_page_branch_unfold _ _ _ _ _ _ _ E) in H. cbv zeta in H.
      destruct (mapM _ _) as [rs|] eqn:EM; [|discriminate]. injection H as <-. cbn [r_ents r_order] in *.
      apply mapM_Forall2 in EM. rewrite key_order_spelled in O. apply andb_true_iff in O. destruct O as [O _].
      apply andb_true_iff in O. destruct O as [(O1 & O2 & O3)%key_order_true_iff O4].
      rewrite forallb_forall in O4. set (xs := map _ (branch_elems _ _ _)) in *. clearbody xs.
      assert (CH : Forall2 (fun xh d0 => sorted_in f (Some (fst (fst xh))) (snd xh) (r_ents d0))
                           (combine xs (map Some (tl (map fst xs)) ++ [hi])) rs).
      { eapply Forall2_impl_In_r; [exact EM|]. intros [[k c] h] d0 I ED. exact (IH _ _ _ _ _ _ ED (O4 _ I)). }
      destruct (branch_concat_sorted f fst hi xs rs O1 O3 CH) as [S1 S2].
      split; [exact S1|]. split.
      + intros k e I. destruct (S2 _ _ I) as [I1 I2]. split; [|exact I2].
        destruct xs as [|[k0 c] xs]; [destruct I1 | exact (opt_le_trans O2 I1)].
      + apply all_sorted_S. split; [exact S1|]. intros k s es (d0 & I0 & I)%in_flat_map.
        destruct (Forall2_In_r CH I0) as (xh & _ & _ & _ & M%all_sorted_mono%all_sorted_S).
        exact (proj2 M _ _ _ I).
  Qed.

  (** the order flag implies a sorted association list (reference-map sense) within the bounds *)
  Theorem dec_page_sorted : forall fuel base limit inline lo hi d,
    dec_page rd ps fuel base limit inline lo hi = Some d -> r_order d = true ->
    keys_sorted (r_ents d) = true /\
    (forall k e, In (k, e) (r_ents d) -> opt_le lo k = true /\ opt_lt k hi = true).
  Proof.
    intros fuel base limit inline lo hi d H O. destruct (dec_ok_all fuel _ _ _ _ _ _ H O) as (A & B & _). now split.
  Qed.

  (** ... and the same of every nested bucket, at every depth *)
  Theorem dec_page_sorted_deep : forall fuel base limit inline lo hi d,
    dec_page rd ps fuel base limit inline lo hi = Some d -> r_order d = true ->
    all_sorted fuel (r_ents d) = true.
  Proof.
    intros fuel base limit inline lo hi d H O. now destruct (dec_ok_all fuel _ _ _ _ _ _ H O) as (_ & _ & C).
  Qed.
End Order.
(** * fuel-free readings of [all_sorted] *)

(** [inside es ents]: [es] is the entry list of a nested bucket somewhere (at any depth) inside [ents] *)
Inductive inside (es : list (bytes * entry)) : list (bytes * entry) -> Prop :=
| inside_here k s ents : In (k, Sub s es) ents -> inside es ents
| inside_deeper k s es0 ents : In (k, Sub s es0) ents -> inside es es0 -> inside es ents.

Lemma all_sorted_inside es ents : inside es ents -> forall f, all_sorted f ents = true -> keys_sorted es = true.
Proof.
  induction 1 as [k s ents I | k s es0 ents I _ IH]; intros [|f] H; try discriminate;
    apply all_sorted_S in H; destruct H as [_ H].
  - exact (all_sorted_keys (H _ _ _ I)).
  - exact (IH _ (H _ _ _ I)).
Qed.

(** structural (fuel-free) boolean version *)
Fixpoint entry_deep_sorted (e : entry) : bool :=
  match e with
  | Val _ => true
  | Sub _ es => keys_sorted es &&
      (fix go (l : list (bytes * entry)) : bool :=
         match l with [] => true | (_, e') :: r => entry_deep_sorted e' && go r end) es
  end.
Definition deep_sorted (ents : list (bytes * entry)) : bool :=
  keys_sorted ents && forallb (fun ke => entry_deep_sorted (snd ke)) ents.

Lemma entry_deep_sorted_Sub s es : entry_deep_sorted (Sub s es) = deep_sorted es.
Proof.
  unfold deep_sorted. cbn [entry_deep_sorted]. f_equal.
  induction es as [|[k e] es IH]; [reflexivity|]. cbn [forallb snd]. now rewrite IH.
Qed.

Lemma all_sorted_deep_sorted f : forall ents, all_sorted f ents = true -> deep_sorted ents = true.
Proof.
  induction f as [|f IH]; intros ents H; [discriminate|]. apply all_sorted_S in H. destruct H as [H1 H2].
  unfold deep_sorted. rewrite H1. apply forallb_forall. intros [k [v|s es]] I; [reflexivity|].
  cbn [snd]. rewrite entry_deep_sorted_Sub. exact (IH _ (H2 _ _ _ I)).
Qed.

(** Every nested bucket anywhere inside the decoded entries is sorted (fuel-free statement). *)
Theorem dec_page_sorted_nested rd ps fuel base limit inline lo hi d :
  dec_page rd ps fuel base limit inline lo hi = Some d -> r_order d = true ->
  deep_sorted (r_ents d) = true /\ forall es, inside es (r_ents d) -> keys_sorted es = true.
Proof.
  intros H O. pose proof (dec_page_sorted_deep _ _ _ _ _ _ _ _ _ H O) as A. split.
  - eapply all_sorted_deep_sorted; eauto.
  - intros es I. eapply all_sorted_inside; eauto.
Qed.

(** The whole file: a decoded view with the order flag set has a reference-map-sorted root bucket at all levels. *)
Theorem dec_with_meta_sorted rd ps fuel m v :
  dec_with_meta rd ps fuel m = Some v -> v_order v = true ->
  keys_sorted (snd (v_root v)) = true /\ all_sorted fuel (snd (v_root v)) = true.
Proof.
  unfold dec_with_meta. intros H O.
  match type of H with match ?X with _ => _ end = _ => destruct X as [d|] eqn:ED; [|discriminate] end.
  injection H as <-. cbn [v_order v_root snd] in *.
  pose proof (dec_page_sorted_deep _ _ _ _ _ _ _ _ _ ED O) as A. split; [eapply all_sorted_keys; eauto | exact A].
Qed.

Print Assumptions dec_page_sorted.
Print Assumptions dec_page_sorted_deep.
Print Assumptions dec_page_sorted_nested.
Print Assumptions dec_with_meta_sorted.
