(** Soundness / completeness of the hashmap allocator model [allocate_hm] and of the decision
    procedure [alloc_ok Hashmap]. *)
From Bbolt Require Import Base BaseProofs Freelist FreelistAllocProofs.

Lemma spans_start_unique l a k1 k2 : sortedb l = true ->
  In (a, k1) (spans l) -> In (a, k2) (spans l) -> k1 = k2.
Proof.
  intros Hs H1 H2.
  destruct (spans_sound l a k1 Hs H1) as (_ & Hr1 & Hn1 & _).
  destruct (spans_sound l a k2 Hs H2) as (_ & Hr2 & Hn2 & _).
  destruct (N.lt_trichotomy k1 k2) as [H|[H|H]]; [|exact H|]; exfalso.
  - apply Hn1, Hr2. lia.
  - apply Hn2, Hr1. lia.
Qed.

Lemma hm_admissible_span l n c : hm_admissible l n c = true ->
  exists k, In (c, k) (spans l) /\ n <= k.
Proof.
  unfold hm_admissible.
  destruct (existsb (fun s => snd s =? n) (spans l)); intros H;
    apply existsb_exists in H; destruct H as [[a k] [Hin H]]; cbn [fst snd] in H;
    apply andb_true_iff in H; destruct H as [Ha Hk]; apply N.eqb_eq in Ha; subst a;
    exists k; (split; [exact Hin|]).
  - apply N.eqb_eq in Hk. lia.
  - apply N.ltb_lt in Hk. lia.
Qed.

Lemma hm_admissible_exact l n c : hm_admissible l n c = true ->
  (exists a, In (a, n) (spans l)) -> In (c, n) (spans l).
Proof.
  unfold hm_admissible. intros H [a Ha].
  assert (E : existsb (fun s => snd s =? n) (spans l) = true).
  { apply existsb_exists. exists (a, n). split; [exact Ha | apply N.eqb_refl]. }
  rewrite E in H. apply existsb_exists in H. destruct H as [[a' k] [Hin H]]. cbn [fst snd] in H.
  apply andb_true_iff in H. destruct H as [H1 H2].
  apply N.eqb_eq in H1. apply N.eqb_eq in H2. subst. exact Hin.
Qed.

Lemma allocate_hm_spec txid n choice s p s' :
  allocate_hm txid n choice s = Some (p, s') ->
  p = choice /\
  ((n = 0 \/ hm_can_allocate (free s) n = false) /\ choice = 0 /\ s' = s \/
   n <> 0 /\ hm_can_allocate (free s) n = true /\ hm_admissible (free s) n choice = true /\
   s' = {| free := remove_ids (run choice n) (free s); pending := pending s;
           allocs := aset choice txid (allocs s); readers := readers s |}).
Proof.
  unfold allocate_hm. destruct (N.eqb_spec n 0) as [En|En].
  { destruct (N.eqb_spec choice 0) as [->|]; [|discriminate]. intros [= <- <-]. tauto. }
  destruct (hm_can_allocate (free s) n); cbn [negb].
  2:{ destruct (N.eqb_spec choice 0) as [->|]; [|discriminate]. intros [= <- <-]. tauto. }
  destruct (hm_admissible (free s) n choice); [|discriminate]. intros [= <- <-]. tauto.
Qed.

Corollary allocate_hm_choice txid n choice s p s' :
  allocate_hm txid n choice s = Some (p, s') -> p = choice.
Proof. intros H. now apply allocate_hm_spec in H. Qed.

Lemma allocate_hm_inv txid n choice s p s' :
  allocate_hm txid n choice s = Some (p, s') -> p <> 0 ->
  n <> 0 /\ hm_admissible (free s) n p = true /\
  s' = {| free := remove_ids (run p n) (free s); pending := pending s;
          allocs := aset p txid (allocs s); readers := readers s |}.
Proof.
  intros H Hp. apply allocate_hm_spec in H. destruct H as [-> [(_ & -> & _)|(Hn & _ & Ha & ->)]]; tauto.
Qed.

Theorem allocate_hm_sound txid n choice s p s' :
  sortedb (free s) = true -> allocate_hm txid n choice s = Some (p, s') -> p <> 0 ->
  0 < n /\ (forall x, In x (run p n) -> In x (free s)) /\
  free s' = remove_ids (run p n) (free s) /\
  pending s' = pending s /\ readers s' = readers s /\ alookup p (allocs s') = Some txid.
Proof.
  intros Hs H Hp.
  destruct (allocate_hm_inv _ _ _ _ _ _ H Hp) as (Hn & Ha & ->).
  destruct (hm_admissible_span _ _ _ Ha) as (k & Hin & Hk).
  split; [lia|]. split.
  - intros x Hx. apply run_in in Hx. apply (spans_sound _ _ _ Hs Hin). lia.
  - cbn [free pending readers allocs]. repeat split.
    unfold aset. cbn [alookup]. rewrite N.eqb_refl. reflexivity.
Qed.

Corollary allocate_hm_ge2 txid n choice s p s' :
  sortedb (free s) = true -> Forall (fun x => 2 <= x) (free s) ->
  allocate_hm txid n choice s = Some (p, s') -> p <> 0 -> 2 <= p.
Proof.
  intros Hs Hall H Hp.
  destruct (allocate_hm_sound _ _ _ _ _ _ Hs H Hp) as (Hn & Hrun & _).
  rewrite Forall_forall in Hall. apply Hall, Hrun, run_in. lia.
Qed.

Theorem allocate_hm_complete txid n choice s s' :
  sortedb (free s) = true -> Forall (fun x => 1 <= x) (free s) -> 0 < n ->
  allocate_hm txid n choice s = Some (0, s') ->
  s' = s /\ ~ (exists q, forall x, In x (run q n) -> In x (free s)).
Proof.
  intros Hs Hall Hn H. apply allocate_hm_spec in H.
  destruct H as [<- [([?|Hc] & _ & ->)|(_ & _ & Ha & _)]]; [lia | |exfalso].
  - split; [reflexivity|]. intros Hex. apply (hm_can_allocate_iff _ _ Hs Hn) in Hex. congruence.
  - (* a span that starts at 0 would put page 0 on the free list *)
    destruct (hm_admissible_span _ _ _ Ha) as (k & Hin & Hk).
    rewrite Forall_forall in Hall. assert (1 <= 0); [|lia].
    apply Hall, (spans_sound _ _ _ Hs Hin). lia.
Qed.

Theorem allocate_hm_exact_first txid n choice s p s' :
  sortedb (free s) = true -> allocate_hm txid n choice s = Some (p, s') -> p <> 0 ->
  (exists a, In (a, n) (spans (free s))) -> In (p, n) (spans (free s)).
Proof.
  intros Hs H Hp Hex.
  destruct (allocate_hm_inv _ _ _ _ _ _ H Hp) as (_ & Ha & _).
  exact (hm_admissible_exact _ _ _ Ha Hex).
Qed.

Theorem allocate_hm_span_start txid n choice s p s' :
  sortedb (free s) = true -> allocate_hm txid n choice s = Some (p, s') -> p <> 0 ->
  exists k, In (p, k) (spans (free s)) /\ n <= k.
Proof.
  intros Hs H Hp.
  destruct (allocate_hm_inv _ _ _ _ _ _ H Hp) as (_ & Ha & _).
  exact (hm_admissible_span _ _ _ Ha).
Qed.

Theorem alloc_ok_hm_sound fb n ret fa : sortedb fb = true -> alloc_ok Hashmap fb n ret fa = true ->
  (ret = 0 -> fa = fb /\ (0 < n -> ~ exists q, forall x, In x (run q n) -> In x fb)) /\
  (ret <> 0 -> 2 <= ret /\ 0 < n /\ (forall x, In x (run ret n) -> In x fb) /\
               fa = remove_ids (run ret n) fb).
Proof. apply alloc_ok_sound. Qed.

(** converse direction (the decision procedure accepts every behaviour the declarative statement allows) *)
Theorem alloc_ok_hm_complete fb n ret fa : sortedb fb = true ->
  (ret = 0 -> fa = fb /\ (0 < n -> ~ exists q, forall x, In x (run q n) -> In x fb)) ->
  (ret <> 0 -> 2 <= ret /\ 0 < n /\ (forall x, In x (run ret n) -> In x fb) /\
               fa = remove_ids (run ret n) fb) ->
  alloc_ok Hashmap fb n ret fa = true.
Proof.
  intros Hs H0 H1. destruct (N.eq_dec ret 0) as [->|NE].
  - destruct (H0 eq_refl) as [-> Hno]. apply alloc_ok_zero_iff. split; [reflexivity|].
    intros Hn. apply not_true_iff_false. intros Hc. apply (Hno Hn). now apply (hm_can_allocate_iff _ _ Hs Hn).
  - apply (alloc_ok_nonzero_iff _ _ _ _ _ NE). specialize (H1 NE). cbn [array_lowest]. tauto.
Qed.

(** the model's own Allocate always satisfies the decision procedure (given ids >= 2) *)
Theorem allocate_hm_alloc_ok txid n choice s p s' :
  sortedb (free s) = true -> Forall (fun x => 2 <= x) (free s) ->
  allocate_hm txid n choice s = Some (p, s') ->
  alloc_ok Hashmap (free s) n p (free s') = true.
Proof.
  intros Hs Hall H. apply alloc_ok_hm_complete; [exact Hs| |].
  - intros ->. destruct (N.eq_dec n 0) as [->|Hn].
    + apply allocate_hm_spec in H. destruct H as [_ [(_ & _ & ->)|(? & _)]]; [|congruence].
      split; [reflexivity | intros Hc; lia].
    + assert (Hall1 : Forall (fun x => 1 <= x) (free s)).
      { eapply Forall_impl; [|exact Hall]. cbn. intros; lia. }
      assert (Hn0 : 0 < n) by lia.
      destruct (allocate_hm_complete _ _ _ _ _ Hs Hall1 Hn0 H) as [-> Hno].
      split; [reflexivity | intros _; exact Hno].
  - intros Hp. destruct (allocate_hm_sound _ _ _ _ _ _ Hs H Hp) as (Hn & Hrun & Hf & _).
    split; [exact (allocate_hm_ge2 _ _ _ _ _ _ Hs Hall H Hp)|].
    split; [exact Hn|]. split; [exact Hrun | exact Hf].
Qed.

Print Assumptions spans_sound.
Print Assumptions spans_cover.
Print Assumptions allocate_hm_sound.
Print Assumptions allocate_hm_ge2.
Print Assumptions allocate_hm_complete.
Print Assumptions allocate_hm_exact_first.
Print Assumptions alloc_ok_hm_sound.
Print Assumptions alloc_ok_hm_complete.
Print Assumptions allocate_hm_alloc_ok.
