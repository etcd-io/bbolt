(** The write-back of child buckets (put_at_key) and commit_parent_bucket.  N1: put_at_key replaces exactly one element
    of the content and changes no page id and no structure.  N2, N3, N4: content, page accounting and "pages only" for
    commit_parent_bucket. *)
From Bbolt Require Import Base BaseProofs Consts Spec SpecProofs Node Tree NodeProofs TreeProofs.
From Coq Require Import Permutation.

Lemma isorted_app a b : isorted (a ++ b) -> isorted a /\ isorted b.
Proof.
  induction a as [|x a IH]; cbn [app]; intros H; [split; [apply isorted_nil | exact H]|].
  apply isorted_cons in H. destruct H as [F S]. destruct (IH S) as [Sa Sb]. split; auto.
  apply isorted_cons. split; auto. apply Forall_app in F. tauto.
Qed.
Lemma isorted_mid a b c : isorted (a ++ b ++ c) -> isorted b.
Proof. intros H. apply isorted_app in H. destruct H as [_ H]. apply isorted_app in H. tauto. Qed.
Lemma isorted_keys l l' : map i_key l' = map i_key l -> isorted l -> isorted l'.
Proof. unfold isorted, keys_of. now intros ->. Qed.

Definition repl (key : bytes) (ni : inode) (l l' : list inode) : Prop :=
  exists a x b, l = a ++ x :: b /\ l' = a ++ ni :: b /\ i_key x = key.

Lemma ins_repl ni : forall l x, isorted l -> ilookup (i_key ni) l = Some x -> repl (i_key ni) ni l (ins ni l).
Proof.
  induction l as [|y r IH]; intros x S L; [discriminate|].
  pose proof (cmp_cases (i_key ni) y) as C. cbn [ins ilookup] in *.
  pose proof S as S0. apply isorted_cons in S. destruct S as [Hall Sr].
  destruct (bcmp (i_key ni) (i_key y)); destruct C as (B & Q & K).
  - exists [], y, r. auto.
  - exfalso. rewrite Q in L. rewrite ilookup_above in L; [discriminate|].
    eapply Forall_impl; [|exact Hall]. intros z Hz. cbv beta in Hz. eapply blt_trans; eauto.
  - rewrite Q in L. destruct (IH x Sr L) as (a & x' & b & -> & -> & E). exists (y :: a), x', b. auto.
Qed.

Definition new_elem (key v : bytes) (fl : N) : inode := {| i_flags := fl; i_key := key; i_val := v; i_pgid := 0 |}.

(** structure and page ids do not depend on sortedness; on sorted content the put replaces one element *)
Lemma put_at_key_repl : forall fuel t d key v fl t',
  wf d t -> put_at_key fuel t key v fl = Ok t' ->
  wf d t' /\ runs t' = runs t /\ (isorted (flat t) -> repl key (new_elem key v fl) (flat t) (flat t')).
Proof.
  induction fuel as [|f IH]; intros t d key v fl t' W H; [discriminate|].
  cbn [put_at_key] in H. apply wf_materialize in W. rewrite <- (flat_materialize t), <- (runs_materialize t).
  destruct (materialize t) as [h il kids]. destruct (h_leaf h) eqn:Hl.
  - destruct (ilookup key il) as [x|] eqn:L; [|discriminate]. destruct (N.odd (i_flags x)); [|discriminate].
    apply bind_ok in H. destruct H as (n' & P & H). injection H as <-.
    inversion W as [? ? _|? ? ? ? Hl' _ _]; subst; [|congruence].
    split; [now constructor|]. split; [reflexivity|]. rewrite !flat_eq, Hl. intros S.
    destruct (N.eqb_spec (len key) 0) as [Z|Z]. { rewrite (proj2 (put_panics_iff _ _ _ _ _ _ _)) in P by auto. discriminate. }
    rewrite put_is_insert in P; [|exact S|lia|exact Z]. injection P as <-. apply (ins_repl (new_elem key v fl) il x S L).
  - destruct (nth_error kids (seek_index il key)) as [c|] eqn:Ec; [|discriminate].
    apply bind_ok in H. destruct H as (c' & Hc & H). injection H as <-.
    destruct (nth_error_split _ _ Ec) as (a & b & -> & <-). rewrite replace_nth_app.
    destruct (wf_kids _ _ _ _ _ _ W) as (d0 & -> & _ & Hlen & Wa & Wc & Wb).
    destruct (IH c d0 key v fl c' Wc Hc) as (Wc' & Rc & Rp). split; [|split].
    + constructor; auto; [now rewrite Hlen, !app_length | now apply Forall_mid].
    + rewrite !runs_eq, !flat_map_mid. now rewrite Rc.
    + rewrite !flat_eq, Hl, !flat_map_mid. intros S. destruct (Rp (isorted_mid _ _ _ S)) as (a' & x & b' & -> & -> & Ex).
      exists (flat_map flat a ++ a'), x, (b' ++ flat_map flat b). rewrite <- !app_assoc. auto.
Qed.

(** N1.  Hypothesis: the content is sorted ([isorted (flat t)] = keys strictly increasing in tree order).  It cannot be
    dropped: node.put finds the position by BINARY search, so on an unsorted leaf that does contain the key (ilookup = Some,
    answer Ok) it can miss it and INSERT a second element; see [put_at_key_needs_sorted]. *)
Theorem put_at_key_ok fuel t d key v fl t' :
  wf d t -> isorted (flat t) -> put_at_key fuel t key v fl = Ok t' ->
  wf d t' /\ runs t' = runs t /\ map i_key (flat t') = map i_key (flat t) /\
  Forall2 (fun a b => i_key a = i_key b /\ (i_key a <> key -> a = b)) (flat t) (flat t') /\
  (NoDup (map i_key (flat t)) ->
   In (new_elem key v fl) (flat t') /\ forall y, In y (flat t') -> i_key y = key -> i_val y = v /\ i_flags y = fl).
Proof.
  intros W S H. destruct (put_at_key_repl _ _ _ _ _ _ _ W H) as (W' & R & Rp). destruct (Rp S) as (a & x & b & -> & -> & Ex).
  split; auto. split; auto. rewrite !map_app. cbn [map new_elem i_key]. split; [congruence|]. split.
  - apply Forall2_app; [apply Forall2_refl'; auto|]. constructor; [|apply Forall2_refl'; auto]. split; [auto | intros; congruence].
  - intros ND. split; [apply in_elt|]. destruct (proj1 (NoDup_app_iff _ _) ND) as (_ & Nb & D). apply NoDup_cons_iff in Nb.
    intros y Hy Ky. apply in_app_or in Hy. destruct Hy as [Hy|[<-|Hy]]; auto; exfalso.
    + apply (D key); [rewrite <- Ky; now apply in_map | left; auto].
    + apply (proj1 Nb). rewrite Ex, <- Ky. now apply in_map.
Qed.
Print Assumptions put_at_key_ok.

(** strictly sorted keys are pairwise distinct, so under N1's hypothesis the last clause always applies *)
Lemma isorted_nodup l : isorted l -> NoDup (map i_key l).
Proof.
  induction l as [|x l IH]; intros S; [constructor|]. apply isorted_cons in S. destruct S as [F S]. cbn [map]. constructor; auto.
  intros Hin. apply in_map_iff in Hin. destruct Hin as (y & Ey & Hy). rewrite Forall_forall in F. specialize (F y Hy).
  cbv beta in F. rewrite Ey, blt_irrefl in F. discriminate.
Qed.

Lemma put_at_key_closed : forall fuel t key v fl t', closed false t -> put_at_key fuel t key v fl = Ok t' -> closed false t'.
Proof.
  induction fuel as [|f IH]; intros t key v fl t' C H; [discriminate|].
  cbn [put_at_key] in H. pose proof (closed_materialize _ _ C) as Cm. pose proof (mat_materialize t) as Mm.
  destruct (materialize t) as [h il kids]. cbn [hd_of] in Mm. pose proof (closed_kids _ _ Cm) as K. cbn [kids_of] in K.
  destruct (h_leaf h).
  - destruct (ilookup key il) as [x|]; [|discriminate]. destruct (N.odd (i_flags x)); [|discriminate].
    apply bind_ok in H. destruct H as (n' & _ & H). injection H as <-. now apply closed_mat.
  - destruct (nth_error kids (seek_index il key)) as [c|] eqn:Ec; [|discriminate].
    apply bind_ok in H. destruct H as (c' & Hc & H). injection H as <-. apply closed_mat; auto.
    apply Forall_replace_nth; auto. eapply IH; [|exact Hc]. exact (Forall_nth_error _ _ _ _ K Ec).
Qed.

Lemma wb_fail fuel children a : (forall t, a <> Ok t) -> forall t, wb fuel children a <> Ok t.
Proof.
  revert a. induction children as [|kv rest IH]; intros a Ha; cbn; [exact Ha|].
  apply IH. intros t. destruct a as [a0| |]; cbn; try discriminate. exfalso. eapply Ha; eauto.
Qed.

Lemma wb_step fuel kv rest t0 t2 : wb fuel (kv :: rest) (Ok t0) = Ok t2 ->
  exists t1, put_at_key fuel t0 (fst kv) (snd kv) bucket_leaf_flag = Ok t1 /\ wb fuel rest (Ok t1) = Ok t2.
Proof.
  cbn [wb fold_left bindr]. intros H. destruct (put_at_key fuel t0 (fst kv) (snd kv) bucket_leaf_flag) as [t1| |] eqn:E; [eauto| |];
    exfalso; revert H; apply wb_fail; discriminate.
Qed.

Lemma wb_inv fuel (P : nt -> Prop) : (forall t key v t', P t -> put_at_key fuel t key v bucket_leaf_flag = Ok t' -> P t') ->
  forall children t0 t2, P t0 -> wb fuel children (Ok t0) = Ok t2 -> P t2.
Proof.
  intros HP. induction children as [|kv rest IH]; intros t0 t2 P0 H; [now injection H as <-|].
  destruct (wb_step _ _ _ _ _ H) as (t1 & H1 & H2). eauto.
Qed.

Lemma wb_wf_runs fuel children t0 t2 d : wf d t0 -> wb fuel children (Ok t0) = Ok t2 -> wf d t2 /\ runs t2 = runs t0.
Proof.
  intros W. apply (wb_inv fuel (fun t => wf d t /\ runs t = runs t0)); auto.
  intros t key v t' [Wt Rt] H. destruct (put_at_key_repl _ _ _ _ _ _ _ Wt H) as (W' & R' & _). split; [auto | congruence].
Qed.

Definition frame (names : list bytes) (a b : inode) : Prop := i_key a = i_key b /\ (~ In (i_key a) names -> a = b).

Lemma wb_ok fuel : forall children t0 t2 d, wf d t0 -> isorted (flat t0) -> wb fuel children (Ok t0) = Ok t2 ->
  map i_key (flat t2) = map i_key (flat t0) /\ Forall2 (frame (map fst children)) (flat t0) (flat t2).
Proof.
  induction children as [|kv rest IH]; intros t0 t2 d W S H.
  - injection H as <-. split; auto. apply Forall2_refl'. intros a. split; auto.
  - destruct (wb_step _ _ _ _ _ H) as (t1 & H1 & H2).
    destruct (put_at_key_ok _ _ _ _ _ _ _ W S H1) as (W1 & _ & K1 & F1 & _).
    destruct (IH t1 t2 d W1 (isorted_keys _ _ K1 S) H2) as (K2 & F2). split; [congruence|].
    eapply Forall2_trans'; [|exact F1|exact F2]. intros a b c (E1 & N1) (E2 & N2). split; [congruence|].
    cbn [map]. intros Hn. rewrite N1 by (intros E; apply Hn; left; auto). apply N2. intros Hin. apply Hn. right. congruence.
Qed.

(** N2: only the elements named in [children] may change, and no key does *)
Theorem commit_parent_bucket_flat ps fill fuel t order children t' evs inl :
  aligned t -> isorted (flat t) -> commit_parent_bucket ps fill fuel t order children = Ok (t', evs, inl) ->
  map i_key (flat t') = map i_key (flat t) /\
  Forall2 (fun a b => i_key a = i_key b /\ (~ In (i_key a) (map fst children) -> a = b)) (flat t) (flat t') /\
  aligned t'.
Proof.
  intros [d W] S H.
  destruct (commit_parent_bucket_cases _ _ _ _ _ _ _ _ _ H) as [(_ & _ & -> & _)|(r & e1 & t2 & e2 & R & Wb & Wr & _)].
  { split; auto. split; [apply Forall2_refl'; auto | exists d; auto]. }
  destruct (rebalance_all_keeps _ _ _ _ _ _ _ R d W) as (d1 & _ & W1 & F1 & _). rewrite <- F1 in S |- *.
  destruct (wb_ok _ _ _ _ _ W1 S Wb) as (K2 & Fr). destruct (wb_wf_runs _ _ _ _ _ W1 Wb) as (W2 & _).
  destruct (written_keeps _ _ _ _ _ _ _ _ W2 Wr) as (A & -> & _). auto.
Qed.
Print Assumptions commit_parent_bucket_flat.

(** N3 (no sortedness needed) *)
Theorem commit_parent_bucket_runs ps fill fuel t order children t' evs inl :
  (0 < fuel)%nat -> aligned t -> commit_parent_bucket ps fill fuel t order children = Ok (t', evs, inl) ->
  Permutation (runs t) (freed evs ++ runs t').
Proof.
  intros Hf [d W] H.
  destruct (commit_parent_bucket_cases _ _ _ _ _ _ _ _ _ H) as [(_ & _ & -> & -> & _)|(r & e1 & t2 & e2 & R & Wb & Wr & ->)]; [reflexivity|].
  destruct (rebalance_all_keeps _ _ _ _ _ _ _ R d W) as (d1 & _ & W1 & _ & A1).
  destruct (wb_wf_runs _ _ _ _ _ W1 Wb) as (W2 & R2). rewrite <- R2 in A1.
  destruct (written_keeps _ _ _ _ _ _ _ _ W2 Wr) as (_ & _ & A2). exact (acct_trans _ _ _ _ _ A1 (A2 Hf)).
Qed.
Print Assumptions commit_parent_bucket_runs.

Theorem commit_parent_bucket_frees ps fill fuel t order children t' evs inl :
  (0 < fuel)%nat -> aligned t -> NoDup (ids t) -> commit_parent_bucket ps fill fuel t order children = Ok (t', evs, inl) ->
  (forall p ov, In (EvFree p ov) evs -> In (p, ov) (runs t)) /\
  NoDup (map fst (freed evs)) /\
  NoDup (ids t') /\
  (forall x, In x (ids t') <-> In x (ids t) /\ ~ In x (map fst (freed evs))).
Proof. intros Hf A ND H. apply acct_frees; [eapply commit_parent_bucket_runs; eauto | exact ND]. Qed.
Print Assumptions commit_parent_bucket_frees.

(** N4: every vertex of the result is a page *)
Theorem commit_parent_bucket_pages ps fill fuel t order children t' evs inl :
  closed false t -> commit_parent_bucket ps fill fuel t order children = Ok (t', evs, inl) -> allpg false t'.
Proof.
  intros C H.
  destruct (commit_parent_bucket_cases _ _ _ _ _ _ _ _ _ H) as [(M & _ & -> & _)|(r & e1 & t2 & e2 & R & Wb & Wr & _)].
  { now apply closed_nonmat. }
  eapply written_pages; [|exact Wr]. eapply (wb_inv fuel (closed false)); [|eapply rebalance_all_closed; eauto|exact Wb].
  intros t0 key v t0'. apply put_at_key_closed.
Qed.
Print Assumptions commit_parent_bucket_pages.

Definition bk (k : N) (v : bytes) : inode := {| i_flags := 1; i_key := [k]; i_val := v; i_pgid := 0 |}.

(** a branch root that is a PAGE (page 2, not materialised) over two leaf pages (3 and 4); leaf 4 holds the bucket entry
    [7] with a 16-byte value.  Writing back the child [7] materialises the root and leaf 4 only: exactly their two pages
    are freed, two pages are allocated, leaf 3 stays the page it was, and only the value of [7] changes. *)
Definition exn : nt :=
  NT (mkh false false 2 [] false) [br 1 3; br 5 4]
     [ NT (mkh false false 3 [] true) [lf 1 [10]; lf 2 [20]] [];
       NT (mkh false false 4 [] true) [lf 5 [50]; bk 7 (repeat 0 16); lf 9 [90]] [] ].
Example exn_commit :
  commit_parent_bucket 4096 50 10 exn [] [([7], repeat 1 16)] =
  Ok (NT (mkh false false 0 [1] false) [br 1 3; br 5 0]
         [ NT (mkh false false 3 [] true) [lf 1 [10]; lf 2 [20]] [];
           NT (mkh false false 0 [5] true) [lf 5 [50]; bk 7 (repeat 1 16); lf 9 [90]] [] ],
      [EvFree 4 0; EvAlloc 1; EvFree 2 0; EvAlloc 1], false).
Proof. vm_compute. reflexivity. Qed.
Example exn_hyps : wf 1 exn /\ isorted (flat exn) /\ closed false exn.
Proof.
  split; [repeat (constructor; auto)|]. split; [vm_compute; reflexivity|].
  apply closed_page. repeat (constructor; try reflexivity; try (intros E; discriminate E)).
Qed.

(** N1 needs sortedness: this leaf contains the key [1] but is not sorted; node.put's binary search lands on position 0,
    does not see the key there and INSERTS a second element with key [1]. *)
Definition unsorted_leaf : nt := NT (mkh true false 3 [] true) [bk 5 [0]; bk 1 [0]; bk 3 [0]] [].
Example put_at_key_needs_sorted :
  wf 0 unsorted_leaf /\ ilookup [1] (ins_of unsorted_leaf) = Some (bk 1 [0]) /\
  match put_at_key 5 unsorted_leaf [1] [9] 1 with Ok t' => map i_key (flat t') | _ => [] end = [[1]; [5]; [1]; [3]].
Proof. split; [now constructor|]. vm_compute. split; reflexivity. Qed.
