(** C16: Batch applies each successful function exactly once. *)
From Bbolt Require Import Base BaseProofs Batch.
From Coq Require Import Sorting.Permutation.

Lemma swap_remove_perm l i : (i < length l)%nat -> Permutation l (nth i l 0 :: swap_remove l i).
Proof.
  intros Hi. unfold swap_remove. destruct (nth_error l i) as [x|] eqn:E; [|apply nth_error_None in E; lia].
  rewrite (nth_error_nth _ _ 0 E). pose proof (nth_error_split_fs l i x E) as El. cbv zeta.
  set (a := firstn i l) in *. set (tail := skipn (S i) l) in *.
  assert (Hlen : (S (i + length tail) = length l)%nat) by (unfold tail; rewrite skipn_length; lia).
  (* the model's [length l - 1] becomes [i + length tail]: no subtraction is left for [lia] to split on *)
  clear Hi E. rewrite <- Hlen. cbn [Nat.sub]. rewrite Nat.sub_0_r.
  destruct (Nat.eqb_spec i (i + length tail)) as [Ei|Hne].
  - (* the last element: simply dropped *)
    destruct tail; [|cbn [length] in Ei; lia]. rewrite Nat.add_0_r. fold a. rewrite El. symmetry. apply Permutation_cons_append.
  - (* l = a ++ x :: mid ++ [y], with y the last element *)
    replace (i + length tail - i - 1)%nat with (length tail - 1)%nat by lia.
    destruct (nth_error tail (length tail - 1)) as [y|] eqn:Et; [|apply nth_error_None in Et; lia].
    pose proof (nth_error_split_fs tail _ y Et) as Es. rewrite skipn_all2 in Es by lia.
    assert (Ey : nth (i + length tail) l 0 = y).
    { apply nth_error_nth. rewrite <- Et. subst tail. rewrite nth_error_skipn'. f_equal. lia. }
    rewrite Ey. apply Permutation_trans with (a ++ x :: firstn (length tail - 1) tail ++ [y]).
    + rewrite <- Es, <- El. reflexivity.
    + symmetry. apply Permutation_cons_app, Permutation_app_head, Permutation_app_comm.
Qed.

Lemma swap_remove_in l i : (i < length l)%nat ->
  forall x, In x l <-> x = nth i l 0 \/ In x (swap_remove l i).
Proof.
  intros Hi x. pose proof (swap_remove_perm l i Hi) as P.
  split; intros H; [apply (Permutation_in _ P) in H | apply (Permutation_in _ (Permutation_sym P))];
    destruct H as [<-|H]; simpl; auto.
Qed.

Lemma swap_remove_facts l i : NoDup l -> (i < length l)%nat ->
  NoDup (swap_remove l i) /\ length (swap_remove l i) = (length l - 1)%nat /\
  ~ In (nth i l 0) (swap_remove l i) /\ (forall x, In x (swap_remove l i) -> In x l) /\
  (forall x, In x l -> x = nth i l 0 \/ In x (swap_remove l i)).
Proof.
  intros ND Hi. pose proof (swap_remove_perm l i Hi) as P.
  pose proof (Permutation_NoDup P ND) as ND'. inversion ND' as [|? ? Hn ND'']; subst.
  pose proof (Permutation_length P) as L. simpl in L. repeat split; auto; [lia | |]; intros x Hx; apply (swap_remove_in l i Hi); auto.
Qed.

Lemma cnt_get_inc c l : cnt_get c (cnt_inc c l) = S (cnt_get c l).
Proof. unfold cnt_inc. simpl. now rewrite N.eqb_refl. Qed.

Lemma round_fail sc calls : forall cnt idx cnt' invs i,
  round sc calls cnt idx = (cnt', invs, Some i) -> (idx <= i < idx + length calls)%nat.
Proof.
  induction calls as [|c rest IH]; intros cnt idx cnt' invs i H; cbn [round] in H; [discriminate|]. cbn [length].
  destruct (sc c (cnt_get c (cnt_inc c cnt))); [|injection H as _ _ <-; lia ..].
  destruct (round sc rest (cnt_inc c cnt) (S idx)) as [[c2 i2] f2] eqn:E.
  injection H as _ _ ->. apply IH in E. lia.
Qed.

Lemma round_ok sc calls : forall cnt idx cnt' invs,
  round sc calls cnt idx = (cnt', invs, None) ->
  map fst invs = calls /\ (forall c k, In (c, k) invs -> sc c k = OOk).
Proof.
  induction calls as [|c rest IH]; intros cnt idx cnt' invs H; cbn [round] in H.
  - injection H as _ <-. split; [reflexivity | intros ? ? []].
  - destruct (sc c (cnt_get c (cnt_inc c cnt))) eqn:Eo; try discriminate.
    destruct (round sc rest (cnt_inc c cnt) (S idx)) as [[c2 i2] f2] eqn:E. injection H as _ <- ->.
    destruct (IH _ _ _ _ E) as [M O]. split; [cbn [map fst]; now rewrite M|].
    intros c0 k [[= <- <-]|Hin]; [exact Eo | eauto].
Qed.

Definition good (sc : script) (committed : list (N * nat)) (c : N) (r : result) : Prop :=
  match r with
  | RNil => exists k, committed_of c committed = [k] /\ sc c k = OOk
  | _ => committed_of c committed = []
  end.

Definition binv (sc : script) (calls : list N) (s : bstate) : Prop :=
  NoDup calls /\
  (forall c, In c calls -> res_get c (b_results s) = None /\ committed_of c (b_committed s) = []) /\
  (forall c r, res_get c (b_results s) = Some r -> good sc (b_committed s) c r).

Lemma committed_of_cons_ne c c' k l : c <> c' -> committed_of c ((c', k) :: l) = committed_of c l.
Proof. intros H. unfold committed_of. simpl. destruct (N.eqb_spec c' c); [congruence | reflexivity]. Qed.

Lemma committed_of_cons_eq c k l : committed_of c ((c, k) :: l) = k :: committed_of c l.
Proof. unfold committed_of. simpl. now rewrite N.eqb_refl. Qed.

Lemma committed_of_app c a b : committed_of c (a ++ b) = committed_of c a ++ committed_of c b.
Proof. unfold committed_of. now rewrite filter_app, map_app. Qed.

Lemma committed_of_notin c invs : ~ In c (map fst invs) -> committed_of c invs = [].
Proof.
  induction invs as [|[a k] l IH]; intros H; [reflexivity|]. simpl in H.
  rewrite committed_of_cons_ne by (intros ->; apply H; left; reflexivity). apply IH. tauto.
Qed.

Lemma committed_of_invs c invs : NoDup (map fst invs) -> In c (map fst invs) ->
  exists k, committed_of c invs = [k] /\ In (c, k) invs.
Proof.
  induction invs as [|[a k] l IH]; intros ND Hin; [destruct Hin|].
  simpl in ND, Hin. inversion ND as [|? ? Hn ND']; subst.
  destruct (N.eq_dec c a) as [->|Hne].
  - exists k. rewrite committed_of_cons_eq, (committed_of_notin a l Hn). split; [reflexivity | left; reflexivity].
  - destruct Hin as [E|Hin]; [congruence|]. destruct (IH ND' Hin) as (k0 & E0 & I0).
    exists k0. rewrite committed_of_cons_ne by exact Hne. split; [exact E0 | right; exact I0].
Qed.

(** [good] looks at the committed invocations of its caller only *)
Lemma good_ext sc l l' c r : committed_of c l' = committed_of c l -> good sc l c r -> good sc l' c r.
Proof. unfold good. intros ->. exact (fun H => H). Qed.

Lemma res_get_cons_ne x c r0 l : x <> c -> res_get x ((c, r0) :: l) = res_get x l.
Proof. intros H. simpl. destruct (N.eqb_spec x c); [congruence | reflexivity]. Qed.

Lemma res_get_app_notin c calls r0 rest : ~ In c calls ->
  res_get c (map (fun c => (c, r0)) calls ++ rest) = res_get c rest.
Proof.
  induction calls as [|a l IH]; intros H; simpl; [reflexivity|].
  destruct (N.eqb_spec c a) as [->|]; [exfalso; apply H; left; reflexivity|]. apply IH. intros Hin; apply H; right; exact Hin.
Qed.

Lemma res_get_app_in c calls r0 rest : In c calls -> res_get c (map (fun c => (c, r0)) calls ++ rest) = Some r0.
Proof.
  induction calls as [|a l IH]; intros H; simpl; [destruct H|].
  destruct (N.eqb_spec c a) as [->|Hne]; [reflexivity|]. apply IH. destruct H as [->|H]; [congruence | exact H].
Qed.

Lemma solo_spec sc c s : exists r, b_results (solo sc c s) = (c, r) :: b_results s /\
  (forall x, x <> c -> committed_of x (b_committed (solo sc c s)) = committed_of x (b_committed s)) /\
  (committed_of c (b_committed s) = [] -> good sc (b_committed (solo sc c s)) c r).
Proof.
  unfold solo. destruct (sc c _) eqn:E; eexists; (split; [reflexivity|]); simpl; (split; [|auto]); auto using committed_of_cons_ne.
  intros H. eexists. rewrite committed_of_cons_eq, H. split; [reflexivity | exact E].
Qed.

Lemma binv_solo sc calls i s cnt' : binv sc calls s -> (i < length calls)%nat ->
  binv sc (swap_remove calls i)
       (solo sc (nth i calls 0) {| b_cnt := cnt'; b_results := b_results s; b_committed := b_committed s |}).
Proof.
  intros (ND & Hfresh & Hgood) Hi. destruct (swap_remove_facts calls i ND Hi) as (ND' & _ & Hnot & Hsub & _).
  destruct (Hfresh _ (nth_In calls 0 Hi)) as [_ Cc]. set (c := nth i calls 0) in *.
  destruct (solo_spec sc c {| b_cnt := cnt'; b_results := b_results s; b_committed := b_committed s |}) as (r & Er & Eo & Eg).
  simpl in Er, Eo, Eg. split; [exact ND'|]. rewrite Er. split.
  - intros x Hx. assert (x <> c) by (intros ->; exact (Hnot Hx)).
    rewrite res_get_cons_ne, Eo by assumption. exact (Hfresh x (Hsub x Hx)).
  - intros x r' Hr. destruct (N.eq_dec x c) as [->|Hne].
    + simpl in Hr. rewrite N.eqb_refl in Hr. injection Hr as <-. exact (Eg Cc).
    + rewrite res_get_cons_ne in Hr by assumption. exact (good_ext _ _ _ _ _ (Eo x Hne) (Hgood x r' Hr)).
Qed.

Lemma results_grow sc fuel : forall calls s s', run_batch fuel sc true calls s = Some s' ->
  forall x r, ~ In x calls -> res_get x (b_results s) = Some r -> res_get x (b_results s') = Some r.
Proof.
  induction fuel as [|f IHf]; intros calls s s' H x r Hn Hr; [discriminate|]. cbn [run_batch] in H.
  destruct calls as [|c0 rest]; [inversion H; subst; exact Hr|]. set (calls := c0 :: rest) in *.
  destruct (round sc calls (b_cnt s) 0) as [[cnt' invs] fail] eqn:ER. destruct fail as [i|].
  - pose proof (round_fail _ _ _ _ _ _ _ ER) as Hi. simpl in Hi.
    pose proof (swap_remove_in calls i ltac:(unfold calls; simpl; lia) x) as Hx.
    destruct (solo_spec sc (nth i calls 0) {| b_cnt := cnt'; b_results := b_results s; b_committed := b_committed s |}) as (r0 & Er & _).
    eapply IHf; [exact H | tauto |]. rewrite Er, res_get_cons_ne by tauto. exact Hr.
  - cbv iota in H. inversion H; subst. cbn [b_results]. exact (eq_trans (res_get_app_notin x calls RNil (b_results s) Hn) Hr).
Qed.

Theorem run_batch_inv fuel sc : forall calls s s', binv sc calls s ->
  run_batch fuel sc true calls s = Some s' ->
  (forall c, In c calls -> exists r, res_get c (b_results s') = Some r) /\
  (forall c r, res_get c (b_results s') = Some r -> good sc (b_committed s') c r).
Proof.
  induction fuel as [|f IH]; intros calls s s' I H; [discriminate|].
  cbn [run_batch] in H. destruct calls as [|c0 rest]; [inversion H; subst; split; [intros ? [] | apply I]|].
  set (calls := c0 :: rest) in *.
  destruct (round sc calls (b_cnt s) 0) as [[cnt' invs] fail] eqn:ER.
  destruct fail as [i|].
  - (* the call at index i failed: taken out, re-run solo; the rest is retried *)
    pose proof (round_fail _ _ _ _ _ _ _ ER) as Hi. simpl in Hi.
    assert (Hi' : (i < length calls)%nat) by (unfold calls; simpl; lia).
    destruct (IH _ _ _ (binv_solo sc calls i s cnt' I Hi') H) as [Hall Hg]. split; [|exact Hg].
    intros x Hx. apply (swap_remove_in calls i Hi') in Hx. destruct Hx as [->|Hin]; [|exact (Hall x Hin)].
    (* the failed caller got its result from the solo run and keeps it *)
    destruct I as (ND & _). destruct (swap_remove_facts calls i ND Hi') as (_ & _ & Hnot & _).
    destruct (solo_spec sc (nth i calls 0) {| b_cnt := cnt'; b_results := b_results s; b_committed := b_committed s |}) as (r & Er & _).
    exists r. eapply results_grow; [exact H | exact Hnot |]. rewrite Er. simpl. now rewrite N.eqb_refl.
  - (* nobody failed: the transaction commits, every call's invocation of this round is committed *)
    destruct I as (ND & Hfresh & Hgood).
    assert (Es : s' = {| b_cnt := cnt'; b_results := map (fun c => (c, RNil)) calls ++ b_results s;
                          b_committed := invs ++ b_committed s |}) by (cbv iota in H; congruence).
    subst s'. clear H. cbn [b_results b_committed].
    destruct (round_ok _ _ _ _ _ _ ER) as [Hm Hok].
    split.
    + intros x Hx. exists RNil. apply res_get_app_in. exact Hx.
    + intros x r Hr. destruct (in_dec N.eq_dec x calls) as [Hin|Hnin].
      * rewrite res_get_app_in in Hr by exact Hin. inversion Hr; subst. simpl.
        destruct (Hfresh x Hin) as [_ Cx]. rewrite committed_of_app, Cx, app_nil_r. rewrite <- Hm in ND, Hin.
        destruct (committed_of_invs x invs ND Hin) as (k & E & I). exists k. split; [exact E | exact (Hok x k I)].
      * rewrite res_get_app_notin in Hr by exact Hnin. apply (good_ext _ (b_committed s)); [|exact (Hgood x r Hr)].
        rewrite committed_of_app, committed_of_notin; [reflexivity | rewrite Hm; exact Hnin].
Qed.

(** termination: every retry removes one call, so [length calls + 1] rounds always suffice *)
Theorem run_batch_terminates sc ok : forall calls s, exists s', run_batch (S (length calls)) sc ok calls s = Some s'.
Proof.
  intros calls. remember (length calls) as n eqn:En. revert calls En.
  induction n as [|n IH]; intros calls En s.
  - destruct calls; [eexists; reflexivity | discriminate].
  - cbn [run_batch]. destruct calls as [|c0 rest]; [discriminate|]. set (calls := c0 :: rest) in *.
    destruct (round sc calls (b_cnt s) 0) as [[cnt' invs] fail] eqn:ER. destruct fail as [i|]; [|eexists; reflexivity].
    pose proof (round_fail _ _ _ _ _ _ _ ER) as Hi. simpl in Hi.
    assert (L : length (swap_remove calls i) = n).
    { pose proof (Permutation_length (swap_remove_perm calls i ltac:(unfold calls; simpl; lia))) as P. simpl in P.
      unfold calls in *. simpl in En, P. lia. }
    apply IH. symmetry. exact L.
Qed.

(** C16: every caller of a batch of distinct callers gets a result; nil means exactly one of its invocations is
    committed (and that invocation succeeded); an error or a panic means none is *)
Theorem batch_exactly_once sc calls s' : NoDup calls ->
  run_batch (S (length calls)) sc true calls bstate0 = Some s' ->
  forall c, In c calls -> exists r, res_get c (b_results s') = Some r /\ good sc (b_committed s') c r.
Proof.
  intros ND H c Hc.
  assert (I0 : binv sc calls bstate0).
  { split; [exact ND|]. split; [intros; split; reflexivity | intros ? ? Hr; discriminate]. }
  destruct (run_batch_inv _ sc calls bstate0 s' I0 H) as [Hall Hg].
  destruct (Hall c Hc) as [r Hr]. exists r. split; [exact Hr | exact (Hg c r Hr)].
Qed.
