(** Where the cursor departs from the sorted list (D9; D1 and D2 before their repair), and what the list
    specification itself enumerates. *)
From Bbolt Require Import Base BaseProofs Spec Cursor.
Open Scope N_scope.

(** * D9: the full statement is false of the faithful model (and of the code) *)
Definition k10 : bytes := [49; 48]. Definition k11 : bytes := [49; 49]. Definition k20 : bytes := [50; 48].
Definition t_trailing : tree := Branch [(k10, Leaf [(k10, 0, []); (k11, 0, [])]); (k20, Leaf [])].

Definition cursor_refines_list : Prop :=
  forall t cs, wf t = true ->
    api_run true (fuel_for t) t [] cs = Ok (list_run (flatten t) Unset cs).

Lemma next_off_end_witness :
  wf t_trailing = true /\
  api_run true (fuel_for t_trailing) t_trailing [] [CLast; CNext; CPrev]
    <> Ok (list_run (flatten t_trailing) Unset [CLast; CNext; CPrev]).
Proof. split; [vm_compute; reflexivity | vm_compute; discriminate]. Qed.

Theorem cursor_refines_list_refuted : ~ cursor_refines_list.
Proof.
  intros H. destruct next_off_end_witness as [W N]. apply N. apply H. exact W.
Qed.

(** D1 / D2 were real in the pinned code: the unrepaired prev stops at an emptied leaf, the unrepaired Last
    never terminates on an all-empty multi-leaf tree (here: out of fuel for a fuel 50x the tree size). *)
Definition t_middle_empty : tree :=
  Branch [(k10, Leaf [(k10, 0%N, []); (k11, 0%N, [])]); (k20, Leaf []); ([51%N; 48%N], Leaf [([51%N; 48%N], 0%N, [])])].
Lemma pinned_prev_stops_early :
  api_run false 64 t_middle_empty [] [CLast; CPrev] = Ok [(Some [51; 48], Some []); (None, None)] /\
  api_run true 64 t_middle_empty [] [CLast; CPrev] = Ok [(Some [51; 48], Some []); (Some k11, Some [])].
Proof. split; vm_compute; reflexivity. Qed.

Definition t_all_empty : tree := Branch [(k10, Leaf []); (k20, Leaf [])].
Lemma pinned_last_diverges :
  api_run false 1000 t_all_empty [] [CLast] = OutOfFuel /\
  api_run true (fuel_for t_all_empty) t_all_empty [] [CLast] = Ok [(None, None)].
Proof. split; vm_compute; reflexivity. Qed.

(** * the specification itself: First;Next* enumerates the list once ascending, Last;Prev* descending *)
Lemma list_next_run l i : (i < length l)%nat ->
  list_run l (At i) (repeat CNext (length l - i)) =
  map (fun e => show (Some e)) (skipn (S i) l) ++ [(None, None)].
Proof.
  remember (length l - i)%nat as n eqn:Hn. revert i Hn.
  induction n as [|n IH]; intros i Hn Hi; [lia|].
  cbn [repeat list_run list_call].
  destruct (Nat.ltb_spec (S i) (length l)) as [Hlt|Hge].
  - rewrite IH by lia. destruct (nth_error_ex l (S i) Hlt) as (e & En).
    rewrite En, (skipn_nth_cons _ _ _ En). reflexivity.
  - assert (n = 0)%nat by lia. subst n. cbn [repeat list_run].
    rewrite skipn_all2 by lia. reflexivity.
Qed.

Theorem list_first_next_enumerates l : l <> [] ->
  list_run l Unset (CFirst :: repeat CNext (length l)) = map (fun e => show (Some e)) l ++ [(None, None)].
Proof.
  intros Hne. destruct l as [|x l]; [congruence|].
  cbn [list_run list_call nth_error].
  change (length (x :: l)) with (S (length l)).
  replace (S (length l)) with (length (x :: l) - 0)%nat by (simpl; lia).
  rewrite list_next_run by (simpl; lia). reflexivity.
Qed.

Lemma list_prev_run l : forall i, (i < length l)%nat ->
  list_run l (At i) (repeat CPrev (S i)) = map (fun e => show (Some e)) (rev (firstn i l)) ++ [(None, None)].
Proof.
  induction i as [|i IH]; intros L; [reflexivity|].
  change (repeat CPrev (S (S i))) with (CPrev :: repeat CPrev (S i)).
  cbn [list_run list_call]. rewrite (IH ltac:(lia)).
  destruct (nth_error_ex l i) as (x & En); [lia|].
  rewrite En, (firstn_S_nth _ _ _ En), rev_unit. reflexivity.
Qed.

Theorem list_last_prev_enumerates l : l <> [] ->
  list_run l Unset (CLast :: repeat CPrev (length l)) = map (fun e => show (Some e)) (rev l) ++ [(None, None)].
Proof.
  intros Hne. cbn [list_run list_call].
  destruct (length l) as [|m] eqn:L; [apply length_zero_iff_nil in L; congruence|].
  rewrite list_prev_run by lia.
  destruct (nth_error_ex l m) as (x & En); [lia|]. rewrite En.
  replace (rev l) with (x :: rev (firstn m l)); [reflexivity|].
  rewrite <- rev_unit, <- (firstn_S_nth _ _ _ En), <- L, firstn_all. reflexivity.
Qed.
