(** TreePagerProofs: composition of the tree layer (Tree.v) with the page-level transaction system (Pager.v):
    every Free the commit of a bucket's tree issues passes the Pager's guard on LFree (a page of the base version,
    freed at most once), for every visit order; and the pages the new tree keeps survive the Pager's LCommit. *)
From Bbolt Require Import Base BaseProofs Consts Spec Node Tree NodeProofs Pager PagerProofs TreeProofs TreeNestedProofs.
From Coq Require Import Permutation.

(** Free(page) frees the whole run p .. p+ov: one LFree per page id *)
Definition free_labels (evs : list ev) : list label :=
  flat_map (fun e => match e with EvFree p ov => map LFree (run p (ov + 1)) | EvAlloc _ => [] end) evs.
Definition run_of (po : N * N) : list N := run (fst po) (snd po + 1).
(** all page ids a tree occupies, overflow included *)
Definition run_ids (t : nt) : list N := flat_map run_of (runs t).
Definition freed_ids (evs : list ev) : list N := flat_map run_of (freed evs).

Lemma free_labels_ids evs : free_labels evs = map LFree (freed_ids evs).
Proof.
  unfold free_labels, freed_ids. induction evs as [|[p ov|n] evs IH]; cbn [flat_map freed]; [reflexivity| |exact IH].
  rewrite map_app, IH. reflexivity.
Qed.

Lemma run_ids_perm t evs t' : Permutation (runs t) (freed evs ++ runs t') ->
  Permutation (run_ids t) (freed_ids evs ++ run_ids t').
Proof. intros HP. unfold run_ids, freed_ids. rewrite <- flat_map_app. now apply Permutation_flat_map. Qed.

(** what is shown: the Frees are accepted and change nothing but the writer's freed list; no double free, no foreign page;
    the pages the new tree keeps are pages of the base version that nobody freed: they survive LCommit *)
Definition frees_accepted (t t' : nt) (evs : list ev) (s : pg) (w : wtx) : Prop :=
  exists s' w', prun s (free_labels evs) = Some s' /\
    g_pages s' = g_pages s /\ g_free s' = g_free s /\ g_readers s' = g_readers s /\
    g_cur s' = g_cur s /\ g_mark s' = g_mark s /\ g_hist s' = g_hist s /\
    g_w s' = Some w' /\ w_freed w' = rev (freed_ids evs) ++ w_freed w /\ w_alloc w' = w_alloc w /\
    w_id w' = w_id w /\ w_mark w' = w_mark w /\
    NoDup (freed_ids evs) /\ (forall p, In p (freed_ids evs) -> In p (run_ids t)) /\
    (forall p, In p (run_ids t') -> In p (run_ids t) /\ ~ In p (freed_ids evs)) /\
    (forall p, In p (run_ids t') -> In p (minus (g_pages s) (freed_ids evs))) /\
    (forall p, In p (run_ids t') -> In p (minus (g_pages s') (w_freed w'))).

Theorem accounted_frees_accepted t evs t' s w :
  Permutation (runs t) (freed evs ++ runs t') ->
  NoDup (run_ids t) -> (forall p, In p (run_ids t) -> In p (g_pages s)) ->
  g_w s = Some w -> (forall p, In p (run_ids t) -> ~ In p (w_freed w)) -> frees_accepted t t' evs s w.
Proof.
  intros HP ND Hin Hw Hnf.
  destruct (perm_nodup_parts _ _ _ (run_ids_perm _ _ _ HP) ND) as (NDf & _ & Sub & Keep).
  destruct (prun_frees (freed_ids evs) s w Hw NDf) as (s' & w' & R & E1 & E2 & E3 & E4 & E5 & E6 & E7 & E8 & E9 & E10 & E11).
  { intros p Hp. apply Hin, Sub, Hp. } { intros p Hp. apply Hnf, Sub, Hp. }
  exists s', w'. rewrite free_labels_ids. repeat split; auto; try (apply Keep; assumption).
  - intros p Hp. apply in_minus. apply Keep in Hp. split; [apply Hin|]; tauto.
  - intros p Hp. apply in_minus. apply Keep in Hp. destruct Hp as [K1 K2]. rewrite E1, E8. split; auto.
    intros Hf. apply in_app_or in Hf. destruct Hf as [Hf|Hf]; [apply K2; now apply in_rev | exact (Hnf p K1 Hf)].
Qed.
Print Assumptions accounted_frees_accepted.

Theorem commit_bucket_frees_accepted ps fill fuel t order t' evs inl s w :
  (0 < fuel)%nat -> aligned t -> NoDup (run_ids t) -> (forall p, In p (run_ids t) -> In p (g_pages s)) ->
  g_w s = Some w -> (forall p, In p (run_ids t) -> ~ In p (w_freed w)) ->
  commit_bucket ps fill fuel t order = Ok (t', evs, inl) -> frees_accepted t t' evs s w.
Proof.
  intros Hf A ND Hin Hw Hnf H. apply accounted_frees_accepted; auto. eapply commit_bucket_runs; eauto.
Qed.
Print Assumptions commit_bucket_frees_accepted.

Theorem commit_tree_frees_accepted ps fill fuel t order t' evs s w :
  aligned t -> NoDup (run_ids t) -> (forall p, In p (run_ids t) -> In p (g_pages s)) ->
  g_w s = Some w -> (forall p, In p (run_ids t) -> ~ In p (w_freed w)) ->
  commit_tree ps fill fuel t order = Ok (t', evs) -> frees_accepted t t' evs s w.
Proof.
  intros A ND Hin Hw Hnf H. apply accounted_frees_accepted; auto. eapply commit_tree_runs; eauto.
Qed.
Print Assumptions commit_tree_frees_accepted.

Theorem commit_parent_bucket_frees_accepted ps fill fuel t order children t' evs inl s w :
  (0 < fuel)%nat -> aligned t -> NoDup (run_ids t) -> (forall p, In p (run_ids t) -> In p (g_pages s)) ->
  g_w s = Some w -> (forall p, In p (run_ids t) -> ~ In p (w_freed w)) ->
  commit_parent_bucket ps fill fuel t order children = Ok (t', evs, inl) -> frees_accepted t t' evs s w.
Proof.
  intros Hf A ND Hin Hw Hnf H. apply accounted_frees_accepted; auto. eapply commit_parent_bucket_runs; eauto.
Qed.
Print Assumptions commit_parent_bucket_frees_accepted.

(** a fresh writer has freed nothing: the last hypothesis is then void *)
Corollary commit_bucket_frees_accepted_fresh ps fill fuel t order t' evs inl s w :
  (0 < fuel)%nat -> aligned t -> NoDup (run_ids t) -> (forall p, In p (run_ids t) -> In p (g_pages s)) ->
  g_w s = Some w -> w_freed w = [] ->
  commit_bucket ps fill fuel t order = Ok (t', evs, inl) -> frees_accepted t t' evs s w.
Proof. intros Hf A ND Hin Hw E H. eapply commit_bucket_frees_accepted; eauto. intros p _. rewrite E. auto. Qed.

(** ex1 (pages 2,3,4,5) under a freshly begun writer *)
Example ex1_run_ids : run_ids ex1 = [2; 3; 4; 5].
Proof. vm_compute. reflexivity. Qed.
Example ex1_frees_accepted :
  match commit_tree 4096 50 10 ex1 [4] with
  | Ok (t', evs) =>
      free_labels evs = [LFree 4; LFree 2] /\
      match prun (pg_open 1 6 [2; 3; 4; 5] []) (LBeginW [] :: free_labels evs ++ [LCommit]) with
      | Some s' => g_pages s' = [3; 5] /\ run_ids t' = [3; 5] /\ g_w s' = None
      | None => False
      end
  | _ => False
  end.
Proof. vm_compute. repeat split; reflexivity. Qed.
