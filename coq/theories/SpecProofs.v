(** Proofs about Spec.v: the byte order, sorted association lists as maps, paths into the tree of buckets; a call
    through a read-only transaction changes nothing. *)
From Bbolt Require Import Base Spec.

Lemma bcmp_refl a : bcmp a a = Eq.
Proof. induction a as [|x a IH]; simpl; [reflexivity|]. now rewrite N.compare_refl. Qed.

Lemma bcmp_eq a b : bcmp a b = Eq -> a = b.
Proof.
  revert b; induction a as [|x a IH]; intros [|y b]; simpl; try discriminate; [reflexivity|].
  destruct (x ?= y) eqn:E; try discriminate. apply N.compare_eq in E. intros H. f_equal; [exact E | now apply IH].
Qed.

Lemma bcmp_antisym a b : bcmp b a = CompOpp (bcmp a b).
Proof.
  revert b; induction a as [|x a IH]; intros [|y b]; simpl; try reflexivity.
  rewrite (N.compare_antisym x y). destruct (x ?= y); simpl; auto.
Qed.

Lemma bcmp_lt_trans a b c : bcmp a b = Lt -> bcmp b c = Lt -> bcmp a c = Lt.
Proof.
  revert b c; induction a as [|x a IH]; intros [|y b] [|z c]; simpl; try discriminate; try reflexivity.
  destruct (x ?= y) eqn:E1; try discriminate; destruct (y ?= z) eqn:E2; try discriminate; intros H1 H2.
  - apply N.compare_eq in E1, E2. subst. rewrite N.compare_refl. eapply IH; eauto.
  - apply N.compare_eq in E1. subst. now rewrite E2.
  - apply N.compare_eq in E2. subst. now rewrite E1.
  - rewrite N.compare_lt_iff in *. assert (x < z) by lia. apply N.compare_lt_iff in H. now rewrite H.
Qed.

Lemma blt_trans a b c : blt a b = true -> blt b c = true -> blt a c = true.
Proof.
  unfold blt. destruct (bcmp a b) eqn:E1; try discriminate. destruct (bcmp b c) eqn:E2; try discriminate.
  intros _ _. now rewrite (bcmp_lt_trans _ _ _ E1 E2).
Qed.

Lemma bcmp_gt_lt a b : bcmp a b = Gt <-> bcmp b a = Lt.
Proof. rewrite (bcmp_antisym a b). destruct (bcmp a b); simpl; split; congruence. Qed.

Lemma bcmp_neq a b : a <> b -> bcmp a b <> Eq.
Proof. intros H E. apply H. now apply bcmp_eq. Qed.

Lemma beq_eq a b : beq a b = true <-> a = b.
Proof.
  unfold beq. split.
  - destruct (bcmp a b) eqn:E; try discriminate. intros _. now apply bcmp_eq.
  - intros ->. now rewrite bcmp_refl.
Qed.

Lemma beq_refl a : beq a a = true.
Proof. now apply beq_eq. Qed.

Lemma beq_false_iff a b : beq a b = false <-> a <> b.
Proof. rewrite <- beq_eq. symmetry. apply not_true_iff_false. Qed.

Lemma blt_lt a b : blt a b = true <-> bcmp a b = Lt.
Proof. unfold blt. destruct (bcmp a b); split; congruence. Qed.

Lemma blt_irrefl a : blt a a = false.
Proof. unfold blt. now rewrite bcmp_refl. Qed.

Lemma blt_asym a b : blt a b = true -> blt b a = false.
Proof. unfold blt. rewrite (bcmp_antisym a b). now destruct (bcmp a b). Qed.

(** the order is total.  Below, [blt b a = false] reads "a <= b". *)
Lemma blt_total a b : blt a b = false -> blt b a = false -> a = b.
Proof.
  unfold blt. rewrite (bcmp_antisym a b). destruct (bcmp a b) eqn:E; cbn; try discriminate.
  intros _ _. now apply bcmp_eq.
Qed.

(** a < b <= c *)
Lemma blt_lt_le_trans a b c : blt a b = true -> blt c b = false -> blt a c = true.
Proof.
  intros H1 H2. destruct (blt b c) eqn:E.
  - exact (blt_trans _ _ _ H1 E).
  - now rewrite <- (blt_total _ _ E H2).
Qed.

(** a <= b < c *)
Lemma blt_le_lt_trans a b c : blt b a = false -> blt b c = true -> blt a c = true.
Proof.
  intros H1 H2. destruct (blt a b) eqn:E.
  - exact (blt_trans _ _ _ E H2).
  - now rewrite (blt_total _ _ E H1).
Qed.

(** a <= b <= c *)
Lemma ble_trans a b c : blt b a = false -> blt c b = false -> blt c a = false.
Proof.
  intros H1 H2. destruct (blt c a) eqn:E; [|reflexivity].
  now rewrite (blt_lt_le_trans _ _ _ E H1) in H2.
Qed.

Definition lower_bound (k : bytes) (l : list (bytes * entry)) : Prop :=
  match l with [] => True | (k', _) :: _ => bcmp k k' = Lt end.

Lemma keys_sorted_cons k e l : keys_sorted ((k, e) :: l) = true <-> lower_bound k l /\ keys_sorted l = true.
Proof.
  simpl. destruct l as [|[k' e'] l].
  - simpl. tauto.
  - unfold lower_bound, blt. rewrite andb_true_iff. destruct (bcmp k k'); split; intros [A B]; try discriminate; auto.
Qed.

Lemma sorted_head_lt k0 e0 l : keys_sorted ((k0, e0) :: l) = true -> forall k e, In (k, e) l -> bcmp k0 k = Lt.
Proof.
  revert k0 e0. induction l as [|[k1 e1] l IH]; intros k0 e0 Hs k e Hin; [destruct Hin|].
  apply keys_sorted_cons in Hs. destruct Hs as [Hlb Hs]. cbn in Hlb. destruct Hin as [Heq|Hin].
  - inversion Heq; subst. exact Hlb.
  - apply (bcmp_lt_trans _ _ _ Hlb). now apply (IH k1 e1 Hs k e).
Qed.

Lemma keys_sorted_app l1 l2 : keys_sorted (l1 ++ l2) = true <->
  keys_sorted l1 = true /\ keys_sorted l2 = true /\
  forall k1 e1 k2 e2, In (k1, e1) l1 -> In (k2, e2) l2 -> bcmp k1 k2 = Lt.
Proof.
  induction l1 as [|[k e] l1 IH]; cbn [app].
  - split; [intros H; repeat split; [exact H | intros ? ? ? ? []] | tauto].
  - split.
    + intros H. pose proof (sorted_head_lt _ _ _ H) as B. apply keys_sorted_cons in H. destruct H as [LB H].
      apply IH in H. destruct H as (S1 & S2 & X). split; [|split; [exact S2|]].
      * apply keys_sorted_cons. split; [|exact S1]. destruct l1 as [|[] ?]; [exact I | exact LB].
      * intros k1 e1 k2 e2 [[= <- <-]|I1] I2; [|eauto]. apply (B k2 e2), in_or_app. now right.
    + intros (S1 & S2 & X). apply keys_sorted_cons in S1. destruct S1 as [LB S1]. apply keys_sorted_cons. split.
      * destruct l1 as [|[k1 e1] l1]; [|exact LB]. destruct l2 as [|[k2 e2] l2]; [exact I|].
        apply (X k e k2 e2); now left.
      * apply IH. repeat split; auto. intros k1 e1 k2 e2 I1. apply (X k1 e1). now right.
Qed.

Lemma keys_sorted_map (g : bytes * entry -> entry) l :
  keys_sorted (map (fun ke => (fst ke, g ke)) l) = keys_sorted l.
Proof.
  induction l as [|[k e] l IH]; [reflexivity|].
  destruct l as [|[k' e'] l]; [reflexivity|].
  cbn [map fst] in *. cbn [keys_sorted] in *. now rewrite IH.
Qed.

Lemma lookup_below_head k e l k2 : keys_sorted ((k, e) :: l) = true -> bcmp k2 k = Lt -> lookup k2 l = None.
Proof.
  revert k e. induction l as [|[k' e'] l IH]; intros k e Hs Hlt; [reflexivity|].
  apply keys_sorted_cons in Hs. destruct Hs as [Hlb Hs]. simpl in Hlb.
  simpl. rewrite (bcmp_lt_trans _ _ _ Hlt Hlb). reflexivity.
Qed.

Theorem lookup_insert_same k e l : lookup k (insert k e l) = Some e.
Proof.
  induction l as [|[k' e'] l IH]; simpl; [now rewrite bcmp_refl|].
  destruct (bcmp k k') eqn:E; simpl; [now rewrite bcmp_refl.. | now rewrite E].
Qed.

(** an insert leaves every other key alone, sorted list or not *)
Lemma lookup_insert_neq k k2 e l : k2 <> k -> lookup k2 (insert k e l) = lookup k2 l.
Proof.
  intros Hne. apply bcmp_neq in Hne. induction l as [|[k' e'] l IH]; cbn [insert lookup].
  - destruct (bcmp k2 k) eqn:E; congruence.
  - destruct (bcmp k k') eqn:E; cbn [lookup].
    + apply bcmp_eq in E. subst k'. destruct (bcmp k2 k); congruence.
    + destruct (bcmp k2 k) eqn:E2; try congruence.
      rewrite (bcmp_lt_trans _ _ _ E2 E). reflexivity.
    + destruct (bcmp k2 k'); try reflexivity. exact IH.
Qed.

Theorem lookup_insert_other k k2 e l : keys_sorted l = true -> bcmp k2 k <> Eq ->
  lookup k2 (insert k e l) = lookup k2 l.
Proof. intros _ Hne. apply lookup_insert_neq. intros ->. now rewrite bcmp_refl in Hne. Qed.

Lemma insert_present k e l : lookup k l = Some e -> insert k e l = l.
Proof.
  induction l as [|[k' e'] l IH]; cbn [lookup insert]; [discriminate|].
  destruct (bcmp k k') eqn:E; try discriminate.
  - apply bcmp_eq in E. subst k'. intros H. now inversion H.
  - intros H. f_equal. now apply IH.
Qed.

Lemma insert_insert k e1 e2 l : insert k e2 (insert k e1 l) = insert k e2 l.
Proof.
  induction l as [|[k' e'] l IH]; cbn [insert]; [now rewrite bcmp_refl|].
  destruct (bcmp k k') eqn:E; cbn [insert]; [now rewrite bcmp_refl.. | now rewrite E, IH].
Qed.

Lemma insert_lower_bound k0 k e l : lower_bound k0 l -> bcmp k0 k = Lt -> lower_bound k0 (insert k e l).
Proof.
  destruct l as [|[k' e'] l]; simpl; intros H1 H2; [exact H2|].
  destruct (bcmp k k'); simpl; auto.
Qed.

Theorem insert_sorted k e l : keys_sorted l = true -> keys_sorted (insert k e l) = true.
Proof.
  induction l as [|[k' e'] l IH]; intros Hs; [reflexivity|].
  simpl insert. destruct (bcmp k k') eqn:E.
  - apply bcmp_eq in E. subst k'. apply keys_sorted_cons in Hs. apply keys_sorted_cons. exact Hs.
  - apply keys_sorted_cons. split; [exact E | exact Hs].
  - apply keys_sorted_cons in Hs. destruct Hs as [Hlb Hs]. apply keys_sorted_cons. split.
    + apply insert_lower_bound; [exact Hlb | now apply bcmp_gt_lt].
    + now apply IH.
Qed.

Theorem lookup_remove_same k l : keys_sorted l = true -> lookup k (remove k l) = None.
Proof.
  induction l as [|[k' e'] l IH]; intros Hs; [reflexivity|].
  simpl remove. destruct (bcmp k k') eqn:E.
  - apply bcmp_eq in E. subst k'. destruct l as [|[k2 e2] l]; [reflexivity|].
    apply keys_sorted_cons in Hs. destruct Hs as [Hlb _]. simpl in Hlb. simpl. now rewrite Hlb.
  - simpl. now rewrite E.
  - simpl. rewrite E. apply IH. apply keys_sorted_cons in Hs. tauto.
Qed.

Theorem lookup_remove_other k k2 l : keys_sorted l = true -> bcmp k2 k <> Eq ->
  lookup k2 (remove k l) = lookup k2 l.
Proof.
  intros Hs Hne. induction l as [|[k' e'] l IH]; [reflexivity|].
  simpl remove. destruct (bcmp k k') eqn:E.
  - apply bcmp_eq in E. subst k'. simpl. destruct (bcmp k2 k) eqn:E2; try congruence.
    eapply lookup_below_head; eauto.
  - reflexivity.
  - simpl. destruct (bcmp k2 k'); try reflexivity. apply IH. apply keys_sorted_cons in Hs. tauto.
Qed.

Lemma remove_absent k l : lookup k l = None -> remove k l = l.
Proof.
  induction l as [|[k' e'] l IH]; cbn [lookup remove]; [reflexivity|].
  destruct (bcmp k k'); [discriminate | reflexivity | intros H; now rewrite IH].
Qed.

Lemma remove_lower_bound k0 k l : keys_sorted l = true -> lower_bound k0 l -> lower_bound k0 (remove k l).
Proof.
  destruct l as [|[k' e'] l]; simpl; intros Hs H; [exact I|].
  destruct (bcmp k k'); simpl; auto.
  destruct l as [|[k2 e2] l]; [exact I|]. simpl.
  apply andb_true_iff in Hs. destruct Hs as [Hs _]. unfold blt in Hs.
  destruct (bcmp k' k2) eqn:E; try discriminate. eapply bcmp_lt_trans; eauto.
Qed.

Theorem remove_sorted k l : keys_sorted l = true -> keys_sorted (remove k l) = true.
Proof.
  induction l as [|[k' e'] l IH]; intros Hs; [reflexivity|].
  simpl remove. destruct (bcmp k k').
  - apply keys_sorted_cons in Hs. tauto.
  - exact Hs.
  - apply keys_sorted_cons in Hs. destruct Hs as [Hlb Hs]. apply keys_sorted_cons. split.
    + now apply remove_lower_bound.
    + now apply IH.
Qed.

Lemma resolve_app p q : forall d, resolve (p ++ q) d = match resolve p d with Some b => resolve q b | None => None end.
Proof.
  induction p as [|n p IH]; intros d; [reflexivity|].
  cbn [app resolve]. destruct (lookup n (snd d)) as [[v|s es]|]; try reflexivity. apply IH.
Qed.

Lemma resolve_through p q d b : resolve p d = Some b -> resolve (p ++ q) d = resolve q b.
Proof. intros R. now rewrite resolve_app, R. Qed.

Lemma resolve_sub p n q d b s es : resolve p d = Some b -> lookup n (snd b) = Some (Sub s es) ->
  resolve (p ++ n :: q) d = resolve q (s, es).
Proof. intros R L. rewrite (resolve_through p _ d b R). cbn [resolve]. now rewrite L. Qed.

Lemma resolve_app_none p q d : resolve p d = None -> resolve (p ++ q) d = None.
Proof. intros R. now rewrite resolve_app, R. Qed.

Lemma update_app p q nb : forall d b, resolve p d = Some b -> update (p ++ q) nb d = update p (update q nb b) d.
Proof.
  induction p as [|n p IH]; intros d b H.
  - cbn in H. inversion H; subst. reflexivity.
  - cbn [app update resolve] in *. destruct (lookup n (snd d)) as [[v|s es]|]; try discriminate.
    rewrite (IH _ _ H). reflexivity.
Qed.

(** writing back what is there, or writing where nothing is, changes nothing *)
Lemma update_noop p nb : forall root, (forall b, resolve p root = Some b -> b = nb) -> update p nb root = root.
Proof.
  induction p as [|n p IH]; intros root H; cbn [resolve update] in *; [symmetry; now apply H|].
  destruct (lookup n (snd root)) as [[v|s es]|] eqn:L; try reflexivity.
  rewrite (IH _ H). destruct root as [sr lr]. cbn [fst snd] in *. f_equal. now apply insert_present.
Qed.

Lemma resolve_update p nb : forall root b0, resolve p root = Some b0 -> resolve p (update p nb root) = Some nb.
Proof.
  induction p as [|n p IH]; intros root b0 H; simpl in *; [reflexivity|].
  destruct (lookup n (snd root)) as [[v|s es]|]; try discriminate.
  destruct (update p nb (s, es)) as [s' es'] eqn:U. simpl.
  rewrite lookup_insert_same. rewrite <- U. eapply IH; eauto.
Qed.

Lemma resolve_update_through p r nb root b0 : resolve p root = Some b0 ->
  resolve (p ++ r) (update p nb root) = resolve r nb.
Proof. intros R. apply resolve_through, (resolve_update p nb root b0 R). Qed.

Lemma update_update p b1 b2 : forall d b0, resolve p d = Some b0 -> update p b2 (update p b1 d) = update p b2 d.
Proof.
  induction p as [|n p IH]; intros d b0 H; [reflexivity|].
  cbn [update resolve] in *. destruct (lookup n (snd d)) as [[v|s es]|]; try discriminate.
  destruct (update p b1 (s, es)) as [s1 es1] eqn:U1. cbn [fst snd].
  rewrite lookup_insert_same. rewrite <- U1. rewrite (IH _ _ H).
  destruct (update p b2 (s, es)) as [s2 es2]. now rewrite insert_insert.
Qed.

Theorem exec_readonly_tx_unchanged o root e out root' :
  exec false o root = (e, out, root') -> root' = root.
Proof.
  unfold exec. destruct (is_write o) eqn:W; simpl.
  - intros H. inversion H; reflexivity.
  - destruct o; try discriminate; simpl.
    + destruct (get path k root). now intros [= _ _ <-].
    + destruct (sequence path root). now intros [= _ _ <-].
Qed.
