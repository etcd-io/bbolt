(** First; Next* enumerates [flatten t] on trees without emptied leaves (every committed tree). *)
From Bbolt Require Import Base BaseProofs Spec Cursor CursorProofs.
Close Scope N_scope.
Open Scope nat_scope.

Notation elem := (bytes * N * bytes)%type.

(** [tree] is nested in [list]: the generated principle has no hypothesis for the children of a branch *)
Lemma tree_ind' (P : tree -> Prop) :
  (forall es, P (Leaf es)) -> (forall cs, (forall k c, In (k, c) cs -> P c) -> P (Branch cs)) -> forall t, P t.
Proof.
  intros HL HB. fix IH 1. intros [es|cs]; [apply HL|]. apply HB.
  induction cs as [|[k0 c0] cs IHcs]; intros k c Hin; [contradiction|].
  destruct Hin as [E|Hin]; [injection E as _ <-; apply IH|exact (IHcs k c Hin)].
Qed.

Definition good (t : tree) : Prop :=
  has_empty_nonroot_leaf_aux false t = false /\ branches_nonempty t = true.

Lemma good_leaf es : good (Leaf es) -> es <> [].
Proof. intros [H _] ->. cbn in H. discriminate. Qed.

Lemma good_branch cs : good (Branch cs) -> cs <> [] /\ forall k c, In (k, c) cs -> good c.
Proof.
  intros [H1 H2]. cbn [has_empty_nonroot_leaf_aux branches_nonempty] in H1, H2.
  apply andb_true_iff in H2 as [H2 H3]. split.
  - intros ->. cbn in H2. discriminate.
  - intros k c Hin. split.
    + destruct (has_empty_nonroot_leaf_aux false c) eqn:E; [|reflexivity].
      rewrite <- H1. symmetry. apply existsb_exists. exists (k, c). split; [exact Hin|exact E].
    + rewrite forallb_forall in H3. apply (H3 (k, c) Hin).
Qed.

Lemma good_child cs i k c : good (Branch cs) -> nth_error cs i = Some (k, c) -> good c.
Proof. intros G Hn. exact (proj2 (good_branch cs G) k c (nth_error_In _ _ Hn)). Qed.

Lemma good_of_hyps t : has_empty_leaf t = false -> branches_nonempty t = true -> flatten t <> [] -> good t.
Proof.
  intros H B Fne. split; [|exact B]. destruct t as [es|cs].
  - cbn. destruct es; [cbn in Fne; congruence|reflexivity].
  - exact H.
Qed.

Lemma depth_pos t : 1 <= depth t.
Proof. destruct t; cbn; lia. Qed.

Lemma depth_child cs i k c : nth_error cs i = Some (k, c) -> S (depth c) <= depth (Branch cs).
Proof.
  cbn [depth]. revert i. induction cs as [|[k0 c0] cs IH]; intros [|i] H; cbn in H; try discriminate.
  - injection H as -> ->. cbn. lia.
  - apply IH in H. cbn [fold_right snd]. lia.
Qed.

Lemma depth_le_nodes t : depth t <= nodes t.
Proof.
  induction t as [es|cs IH] using tree_ind'; [cbn; lia|]. cbn [depth nodes]. apply le_n_S.
  induction cs as [|[k c] cs IHcs]; [apply le_n|]. cbn [fold_right snd].
  pose proof (IH k c (or_introl eq_refl)). pose proof (IHcs (fun k' c' Hin => IH k' c' (or_intror Hin))). lia.
Qed.

Lemma depth_le_fuel_for t : depth t <= fuel_for t.
Proof. unfold fuel_for. pose proof (depth_le_nodes t). lia. Qed.

Lemma child_nat cs i : child (Branch cs) (Z.of_nat i) = option_map snd (nth_error cs i).
Proof. cbn [child]. destruct (Z.ltb_spec (Z.of_nat i) 0) as [X|_]; [lia|]. rewrite Nat2Z.id. reflexivity. Qed.

(** the position invariant: [at_pos t st b e a] = the stack [st] (top first, root last) is a path in [t]
    to the leaf element [e], with [b] the elements before it and [a] those after it in [flatten t]. *)
Inductive at_pos : tree -> stack -> list elem -> elem -> list elem -> Prop :=
| AtLeaf es i e b a : nth_error es i = Some e -> b = firstn i es -> a = skipn (S i) es ->
    at_pos (Leaf es) [(Leaf es, Z.of_nat i)] b e a
| AtBranch cs i k c st b e a b' a' : nth_error cs i = Some (k, c) -> at_pos c st b e a ->
    b' = flatten (Branch (firstn i cs)) ++ b -> a' = a ++ flatten (Branch (skipn (S i) cs)) ->
    at_pos (Branch cs) (st ++ [(Branch cs, Z.of_nat i)]) b' e a'.

Lemma flatten_firstn_S cs i k c : nth_error cs i = Some (k, c) ->
  flatten (Branch (firstn (S i) cs)) = flatten (Branch (firstn i cs)) ++ flatten c.
Proof.
  intros H. rewrite (firstn_S_nth _ _ _ H). cbn [flatten]. rewrite flat_map_app. cbn [flat_map snd].
  rewrite app_nil_r. reflexivity.
Qed.

Lemma flatten_skipn cs i k c : nth_error cs i = Some (k, c) ->
  flatten (Branch (skipn i cs)) = flatten c ++ flatten (Branch (skipn (S i) cs)).
Proof. intros H. rewrite (skipn_nth_cons _ _ _ H). reflexivity. Qed.

Lemma flatten_split cs i k c : nth_error cs i = Some (k, c) ->
  flatten (Branch cs) = flatten (Branch (firstn i cs)) ++ flatten c ++ flatten (Branch (skipn (S i) cs)).
Proof.
  intros H. rewrite <- (flatten_skipn _ _ _ _ H). cbn [flatten]. rewrite <- flat_map_app, firstn_skipn. reflexivity.
Qed.

Lemma at_pos_flatten t st b e a : at_pos t st b e a -> flatten t = b ++ e :: a.
Proof.
  induction 1 as [es i e b a Hn -> ->|cs i k c st b e a b' a' Hn H IH -> ->].
  - rewrite <- (skipn_nth_cons _ _ _ Hn). symmetry. apply firstn_skipn.
  - rewrite (flatten_split cs i k c Hn), IH, <- !app_assoc. reflexivity.
Qed.

Lemma at_pos_len t st b e a : at_pos t st b e a -> length (flatten t) = length b + S (length a).
Proof. intros P. rewrite (at_pos_flatten _ _ _ _ _ P), app_length. reflexivity. Qed.

Lemma at_pos_top t st b e a : at_pos t st b e a ->
  exists es i tl, st = (Leaf es, Z.of_nat i) :: tl /\ nth_error es i = Some e.
Proof.
  induction 1 as [es i e b a Hn _ _|cs i k c st b e a b' a' Hn H IH _ _].
  - exists es, i, []. split; [reflexivity|exact Hn].
  - destruct IH as (es & j & tl & -> & Hj). exists es, j, (tl ++ [(Branch cs, Z.of_nat i)]). split; [reflexivity|exact Hj].
Qed.

Definition kv_of (e : elem) : kv := Some (fst (fst e), snd e, snd (fst e)).

Lemma api_kv_show e : api_kv (kv_of e) = show (Some e).
Proof. destruct e as [[k fl] v]. reflexivity. Qed.

Lemma key_value_leaf es i tl e : nth_error es i = Some e ->
  (count (Leaf es) =? 0)%Z = false /\ key_value ((Leaf es, Z.of_nat i) :: tl) = Ok (kv_of e).
Proof.
  intros Hn. pose proof (nth_error_lt _ _ _ Hn) as L. cbn [key_value count leaf_elem].
  destruct (Z.eqb_spec (Z.of_nat (length es)) 0) as [X|_]; [lia|]. split; [reflexivity|].
  destruct (Z.geb_spec (Z.of_nat i) (Z.of_nat (length es))) as [X|_]; [lia|]. cbn [orb].
  destruct (Z.ltb_spec (Z.of_nat i) 0) as [X|_]; [lia|]. rewrite Nat2Z.id, Hn. destruct e as [[k fl] v]. reflexivity.
Qed.

(** how first() and next() end: the leaf on top is not empty, so they return its element *)
Lemma kv_at_pos t st b e a (alt : res (stack * kv)) : at_pos t st b e a ->
  match st with
  | (t0, _) :: _ => if (count t0 =? 0)%Z then alt else let? r := key_value st in Ok (st, r)
  | [] => Panic
  end = Ok (st, kv_of e).
Proof.
  intros P. destruct (at_pos_top _ _ _ _ _ P) as (es & i & tl & -> & Hn).
  destruct (key_value_leaf es i tl e Hn) as [C K]. rewrite C, K. reflexivity.
Qed.

(** goToFirstElementOnTheStack looks at the top of the stack only *)
Lemma go_first_app fuel : forall st st2 rest, go_first fuel st = Ok st2 -> go_first fuel (st ++ rest) = Ok (st2 ++ rest).
Proof.
  induction fuel as [|f IH]; intros [|[t i] st] st2 rest E; try discriminate. cbn [app go_first] in *.
  destruct (is_leaf t); [injection E as <-; reflexivity|]. destruct (child t i) as [c|]; [|discriminate].
  exact (IH ((c, 0%Z) :: (t, i) :: st) st2 rest E).
Qed.

Lemma go_first_into f cs i k c st : nth_error cs i = Some (k, c) -> go_first f [(c, 0%Z)] = Ok st ->
  go_first (S f) [(Branch cs, Z.of_nat i)] = Ok (st ++ [(Branch cs, Z.of_nat i)]).
Proof.
  intros Hn E. cbn [go_first is_leaf]. rewrite child_nat, Hn. exact (go_first_app f [(c, 0%Z)] st _ E).
Qed.

Lemma go_first_good fuel : forall c, good c -> depth c <= fuel ->
  exists st e a, go_first fuel [(c, 0%Z)] = Ok st /\ at_pos c st [] e a.
Proof.
  induction fuel as [|f IH]; intros c G D; [pose proof (depth_pos c); lia|].
  destruct c as [es|cs].
  - pose proof (good_leaf _ G) as Hne. destruct es as [|e es]; [congruence|].
    exists [(Leaf (e :: es), 0%Z)], e, es. split; [reflexivity|].
    apply (AtLeaf (e :: es) 0 e); reflexivity.
  - destruct (good_branch _ G) as [Hne Gc]. destruct cs as [|[k c0] cs]; [congruence|].
    pose proof (depth_child ((k, c0) :: cs) 0 k c0 eq_refl) as D0.
    destruct (IH c0 (Gc k c0 (or_introl eq_refl)) ltac:(lia)) as (st & e & a & E & P).
    exists (st ++ [(Branch ((k, c0) :: cs), 0%Z)]), e, (a ++ flatten (Branch cs)). split.
    + exact (go_first_into f ((k, c0) :: cs) 0 k c0 st eq_refl E).
    + apply (AtBranch ((k, c0) :: cs) 0 k c0 st [] e a); [reflexivity|exact P|reflexivity|reflexivity].
Qed.

Lemma good_flatten_ne t : good t -> flatten t <> [].
Proof.
  intros G. destruct (go_first_good (depth t) t G (le_n _)) as (st & e & a & _ & P).
  apply at_pos_flatten in P. rewrite P. cbn. discriminate.
Qed.

Lemma next_up_app st rest :
  next_up (st ++ rest) = match next_up st with Some st1 => Some (st1 ++ rest) | None => next_up rest end.
Proof.
  induction st as [|[t i] st IH]; [reflexivity|]. cbn [app next_up]. destruct (i <? count t - 1)%Z; [reflexivity|exact IH].
Qed.

Lemma next_up_last t i rest : (count t <= Z.of_nat (S i))%Z ->
  next_up ((t, Z.of_nat i) :: rest) = next_up rest.
Proof.
  intros L. cbn [next_up]. destruct (Z.ltb_spec (Z.of_nat i) (count t - 1)) as [X|X]; [lia|reflexivity].
Qed.

Lemma next_up_more t i rest : (Z.of_nat (S i) < count t)%Z ->
  next_up ((t, Z.of_nat i) :: rest) = Some ((t, Z.of_nat (S i)) :: rest).
Proof.
  intros L. cbn [next_up].
  destruct (Z.ltb_spec (Z.of_nat i) (count t - 1)) as [X|X]; [|lia].
  replace (Z.of_nat i + 1)%Z with (Z.of_nat (S i)) by lia. reflexivity.
Qed.

(** next() from a position with [a] after it: the loop pops the exhausted nodes; when an element follows, the first
    node that is not exhausted moves on by one and goToFirstElementOnTheStack descends from there to that element *)
Inductive next_moves (fuel : nat) (t : tree) (st : stack) (b : list elem) (e : elem) : list elem -> Prop :=
| AtLast : next_up st = None -> next_moves fuel t st b e []
| MovesOn e' a' st1 st2 : next_up st = Some st1 -> go_first fuel st1 = Ok st2 -> at_pos t st2 (b ++ [e]) e' a' ->
    next_moves fuel t st b e (e' :: a').

Lemma next_step fuel t st b e a : at_pos t st b e a -> good t -> depth t <= fuel -> next_moves fuel t st b e a.
Proof.
  induction 1 as [es i e b a Hn -> ->|cs i k c st b e a b' a' Hn H IH -> ->]; intros G D.
  - destruct (nth_error es (S i)) as [e'|] eqn:Hn'.
    + rewrite (skipn_nth_cons _ _ _ Hn').
      apply MovesOn with (st1 := [(Leaf es, Z.of_nat (S i))]) (st2 := [(Leaf es, Z.of_nat (S i))]).
      * apply next_up_more. cbn [count]. apply nth_error_lt in Hn'. lia.
      * destruct fuel; [inversion D|reflexivity].
      * apply AtLeaf; [exact Hn'|symmetry; apply (firstn_S_nth _ _ _ Hn)|reflexivity].
    + apply nth_error_None in Hn'. rewrite (skipn_all2 _ Hn'). apply AtLast, (next_up_last _ _ []). cbn [count]. lia.
  - pose proof (depth_child _ _ _ _ Hn) as D0.
    destruct (IH (good_child _ _ _ _ G Hn) ltac:(lia)) as [Up|e' a' st1 st2 Up Down P].
    + (* the child is exhausted: move to the next child, if there is one, and descend *)
      cbn [app]. destruct (nth_error cs (S i)) as [[k1 c1]|] eqn:Hn1.
      * destruct fuel as [|f]; [lia|]. pose proof (depth_child _ _ _ _ Hn1) as D1.
        destruct (go_first_good f c1 (good_child _ _ _ _ G Hn1) ltac:(lia)) as (st2 & e2 & a2 & Down & P2).
        rewrite (flatten_skipn _ _ _ _ Hn1), (at_pos_flatten _ _ _ _ _ P2).
        apply MovesOn with (st1 := [(Branch cs, Z.of_nat (S i))]) (st2 := st2 ++ [(Branch cs, Z.of_nat (S i))]).
        -- rewrite next_up_app, Up. apply next_up_more. cbn [count]. apply nth_error_lt in Hn1. lia.
        -- exact (go_first_into f cs (S i) k1 c1 st2 Hn1 Down).
        -- eapply AtBranch; [exact Hn1|exact P2| |reflexivity].
           rewrite (flatten_firstn_S _ _ _ _ Hn), (at_pos_flatten _ _ _ _ _ H), app_nil_r, app_assoc. reflexivity.
      * apply nth_error_None in Hn1. rewrite (skipn_all2 _ Hn1). apply AtLast.
        rewrite next_up_app, Up. apply (next_up_last _ _ []). cbn [count]. lia.
    + apply MovesOn with (st1 := st1 ++ [(Branch cs, Z.of_nat i)]) (st2 := st2 ++ [(Branch cs, Z.of_nat i)]).
      * rewrite next_up_app, Up. reflexivity.
      * exact (go_first_app _ _ _ _ Down).
      * eapply AtBranch; [exact Hn|exact P| |reflexivity]. rewrite app_assoc. reflexivity.
Qed.

(** what next() returns, started on [st'] with the cursor at [st] or, more generally, where the loop does
    the same as there (Seek can leave the index just past the last element of a leaf) *)
Lemma next_good t st st' b e a fuel : at_pos t st b e a -> next_up st' = next_up st -> good t -> depth t <= fuel ->
  match a with
  | [] => next_ fuel st' = Ok (st', None)
  | e' :: a' => exists st2, next_ fuel st' = Ok (st2, kv_of e') /\ at_pos t st2 (b ++ [e]) e' a'
  end.
Proof.
  intros P U G F. destruct fuel as [|f]; [pose proof (depth_pos t); lia|].
  destruct (next_step _ _ _ _ _ _ P G F) as [Up|e' a' st1 st2 Up Down P2].
  - cbn [next_]. rewrite U, Up. reflexivity.
  - exists st2. split; [|exact P2]. cbn [next_]. rewrite U, Up, Down. cbn [bindr]. apply (kv_at_pos _ _ _ _ _ _ P2).
Qed.

Lemma first_good t fuel : good t -> depth t <= fuel ->
  exists st e a, first_ fuel t = Ok (st, kv_of e) /\ at_pos t st [] e a.
Proof.
  intros G F. destruct (go_first_good fuel t G F) as (st & e & a & E & P). exists st, e, a. split; [|exact P].
  unfold first_. rewrite E. cbn [bindr]. apply (kv_at_pos _ _ _ _ _ _ P).
Qed.

Lemma api_run_cons fixed fuel root st c r :
  api_run fixed fuel root st (c :: r) =
  (let? x := api_call fixed fuel root st c in
   let? rest := api_run fixed fuel root (fst x) r in Ok (snd x :: rest)).
Proof. reflexivity. Qed.

Lemma next_run t fuel fixed : good t -> depth t <= fuel -> forall a st b e, at_pos t st b e a ->
  api_run fixed fuel t st (repeat CNext (S (length a))) =
  Ok (map (fun x => show (Some x)) a ++ [(None, None)]).
Proof.
  intros G F. induction a as [|e' a IH]; intros st b e P; pose proof (next_good _ _ st _ _ _ fuel P eq_refl G F) as N.
  - cbn [length repeat api_run map app]. unfold api_call. rewrite N. reflexivity.
  - destruct N as (st2 & N & P2).
    change (repeat CNext (S (length (e' :: a)))) with (CNext :: repeat CNext (S (length a))).
    rewrite api_run_cons. unfold api_call. rewrite N. cbn [bindr fst snd]. rewrite (IH _ _ _ P2). cbn [bindr].
    rewrite api_kv_show. reflexivity.
Qed.

(** First then Next* visits every element once, in the order of [flatten t], then yields nil.
    Key order plays no role in forward enumeration: [wf] is not needed, any fuel >= depth will do,
    and the pinned ([fixed = false]) and repaired code agree (First/Next were not changed) *)
Theorem first_next_enumerates_shape : forall fixed fuel t,
  has_empty_leaf t = false -> branches_nonempty t = true -> flatten t <> [] -> depth t <= fuel ->
  api_run fixed fuel t [] (CFirst :: repeat CNext (length (flatten t))) =
  Ok (map (fun e => show (Some e)) (flatten t) ++ [(None, None)]).
Proof.
  intros fixed fuel t H B Fne F. pose proof (good_of_hyps t H B Fne) as G.
  destruct (first_good t fuel G F) as (st & e & a & E & P).
  rewrite (at_pos_flatten _ _ _ _ _ P). cbn [app]. change (length (e :: a)) with (S (length a)).
  rewrite api_run_cons. unfold api_call. rewrite E. cbn [bindr fst snd].
  rewrite (next_run t fuel fixed G F _ _ _ _ P). cbn [bindr]. rewrite api_kv_show. reflexivity.
Qed.

Print Assumptions first_next_enumerates_shape.
