(** Proofs about the independent reader: byte windows, integer and meta round trips, checksum validation, which
    meta Open presents, accounting. *)
From Bbolt Require Import Base BaseProofs Consts Spec Fnv Layout LayoutEnc.
From Coq Require Import Sorting.Permutation Sorting.Sorted.

Lemma rd_of_app_skip pre l off : rd_of (pre ++ l) (N.of_nat (length pre) + off) = rd_of l off.
Proof.
  unfold rd_of. rewrite N2Nat.inj_add, Nat2N.id. rewrite app_nth2 by lia. f_equal. lia.
Qed.

Lemma enc_le_length n v : length (enc_le n v) = n.
Proof. revert v; induction n as [|n IH]; intros v; simpl; [reflexivity | now rewrite IH]. Qed.

Lemma enc_le_bytes n v : Forall isbyte (enc_le n v).
Proof.
  revert v; induction n as [|n IH]; intros v; simpl; constructor; [|apply IH].
  unfold isbyte. apply N.mod_lt. discriminate.
Qed.

Definition le_list (l : list N) : N := fold_right (fun b acc => b + 256 * acc) 0 l.

Lemma le_rbytes rd n : forall off, le rd n off = le_list (rbytes rd n off).
Proof. induction n as [|n IH]; intros off; cbn [le rbytes]; [reflexivity | now rewrite IH]. Qed.

Lemma le_list_enc_le n : forall v, v < 256 ^ N.of_nat n -> le_list (enc_le n v) = v.
Proof.
  induction n as [|n IH]; intros v Hv; [simpl in *; lia|].
  change (v mod 256 + 256 * le_list (enc_le n (v / 256)) = v). rewrite IH.
  - pose proof (N.div_mod v 256). lia.
  - rewrite Nat2N.inj_succ, N.pow_succ_r' in Hv. apply N.div_lt_upper_bound; [discriminate | exact Hv].
Qed.

(** ** byte windows: [has_bytes rd off l] - the content [rd] holds the bytes [l] at offset [off].  Everything a
    reader computes is stated over such windows; a file [pre ++ l ++ post] enters only through [has_bytes_rd_of]. *)
Definition has_bytes (rd : N -> N) (off : N) (l : list N) : Prop := rbytes rd (length l) off = l.

Lemma has_bytes_rd_of pre l post : has_bytes (rd_of (pre ++ l ++ post)) (N.of_nat (length pre)) l.
Proof.
  unfold has_bytes. revert pre. induction l as [|x l IH]; intros pre; [reflexivity|].
  cbn [length rbytes]. f_equal.
  - rewrite <- (N.add_0_r (N.of_nat (length pre))). exact (rd_of_app_skip pre (x :: l ++ post) 0).
  - specialize (IH (pre ++ [x])). rewrite <- app_assoc, app_length, Nat2N.inj_add in IH. exact IH.
Qed.

Lemma has_bytes_app rd l1 : forall off l2,
  has_bytes rd off (l1 ++ l2) -> has_bytes rd off l1 /\ has_bytes rd (off + len l1) l2.
Proof.
  unfold has_bytes, len. induction l1 as [|x l1 IH]; intros off l2 H.
  - rewrite N.add_0_r. split; [reflexivity | exact H].
  - cbn [app length rbytes] in *. injection H as Hx H. apply IH in H as [H1 H2].
    split; [now rewrite Hx, H1|]. rewrite <- H2 at 2. f_equal. lia.
Qed.

Lemma has_bytes_take rd off l z : has_bytes rd off (l ++ z) -> has_bytes rd off l.
Proof. intros H. apply (has_bytes_app _ _ _ _ H). Qed.

(** the target offset is a parameter, so that the caller names it in the form the reader uses *)
Lemma has_bytes_skip rd off a l off' : has_bytes rd off (a ++ l) -> off + len a = off' -> has_bytes rd off' l.
Proof. intros H <-. apply (has_bytes_app _ _ _ _ H). Qed.

Lemma has_bytes_le_list rd off l : has_bytes rd off l -> le rd (length l) off = le_list l.
Proof. intros H. now rewrite le_rbytes, H. Qed.

Lemma has_bytes_le rd off n v : has_bytes rd off (enc_le n v) -> v < 256 ^ N.of_nat n -> le rd n off = v.
Proof.
  intros H Hv. apply has_bytes_le_list in H. rewrite enc_le_length in H. rewrite H. now apply le_list_enc_le.
Qed.

Lemma has_bytes_field0 rd b n v rest : has_bytes rd b (enc_le n v ++ rest) ->
  (v < 256 ^ N.of_nat n -> le rd n b = v) /\ has_bytes rd (b + N.of_nat n) rest.
Proof.
  intros H. split; [apply has_bytes_le; exact (has_bytes_take _ _ _ _ H)|].
  apply (has_bytes_skip _ _ _ _ _ H). unfold len. now rewrite enc_le_length.
Qed.

(** [has_bytes_field0] inside a structure that starts at [b]: with the offset kept as [b + k], [k] a numeral, the
    offset of the next field is found by computation *)
Lemma has_bytes_field rd b k n v rest : has_bytes rd (b + k) (enc_le n v ++ rest) ->
  (v < 256 ^ N.of_nat n -> le rd n (b + k) = v) /\ has_bytes rd (b + (k + N.of_nat n)) rest.
Proof. rewrite N.add_assoc. apply has_bytes_field0. Qed.

Lemma le_enc_le n : forall v pre post, v < 256 ^ N.of_nat n ->
  le (rd_of (pre ++ enc_le n v ++ post)) n (N.of_nat (length pre)) = v.
Proof. intros v pre post. apply has_bytes_le, has_bytes_rd_of. Qed.

Lemma meta_read rd b m : has_bytes rd b (enc_meta m) -> meta_fields_ok m -> rd_meta_at rd b = with_sum m.
Proof.
  intros W (H1 & H2 & H3 & H4 & H5 & H6 & H7 & H8 & H9).
  apply has_bytes_app in W as [W WS]. change (len (enc_meta_body m)) with 56 in WS. unfold enc_meta_body in W.
  destruct (has_bytes_field0 _ _ _ _ _ W) as [E1 W1].
  destruct (has_bytes_field _ b 4 _ _ _ W1) as [E2 W2].
  destruct (has_bytes_field _ b 8 _ _ _ W2) as [E3 W3].
  destruct (has_bytes_field _ b 12 _ _ _ W3) as [E4 W4].
  destruct (has_bytes_field _ b 16 _ _ _ W4) as [E5 W5].
  destruct (has_bytes_field _ b 24 _ _ _ W5) as [E6 W6].
  destruct (has_bytes_field _ b 32 _ _ _ W6) as [E7 W7].
  destruct (has_bytes_field _ b 40 _ _ _ W7) as [E8 W8].
  apply (has_bytes_le _ (b + 48)) in W8; [|exact H9].
  apply has_bytes_le in WS; [|apply fnv_from_range; reflexivity].
  unfold rd_meta_at, with_sum, u32, u64.
  rewrite (E1 H1), (E2 H2), (E3 H3), (E4 H4), (E5 H5), (E6 H6), (E7 H7), (E8 H8), W8, WS. reflexivity.
Qed.

Theorem meta_roundtrip m pre post : meta_fields_ok m ->
  rd_meta_at (rd_of (pre ++ enc_meta m ++ post)) (N.of_nat (length pre)) = with_sum m.
Proof. apply meta_read, has_bytes_rd_of. Qed.

Definition valid_segments (A B C D : list N) : Prop :=
  le_list A = magic /\ le_list B = version /\ le_list D = fnv64a (A ++ B ++ C).

Lemma validate_window rd b A B C D :
  length A = 4%nat -> length B = 4%nat -> length C = 48%nat -> length D = 8%nat ->
  has_bytes rd b (A ++ B ++ C ++ D) -> (validate_at rd b = MOk <-> valid_segments A B C D).
Proof.
  intros LA LB LC LD W.
  assert (WB : has_bytes rd (b + 4) (B ++ C ++ D)) by (apply (has_bytes_skip _ _ _ _ _ W); unfold len; now rewrite LA).
  assert (WS : has_bytes rd b ((A ++ B ++ C) ++ D)) by (now rewrite <- !app_assoc).
  assert (WD : has_bytes rd (b + 56) D).
  { apply (has_bytes_skip _ _ _ _ _ WS). unfold len. now rewrite !app_length, LA, LB, LC. }
  apply has_bytes_take in W, WB, WS. apply has_bytes_le_list in W, WB, WD.
  unfold has_bytes in WS. rewrite !app_length, LA, LB, LC in WS. rewrite LA in W. rewrite LB in WB. rewrite LD in WD.
  unfold validate_at, valid_segments, meta_sum_at, rd_meta_at, u32, u64. cbn [m_magic m_version m_sum].
  rewrite W, WB, WD, fnv64a_fast_eq. change (4 + (4 + 48))%nat with 56%nat in WS. rewrite WS.
  destruct (N.eqb_spec (le_list A) magic); simpl; [|split; [discriminate | tauto]].
  destruct (N.eqb_spec (le_list B) version); simpl; [|split; [discriminate | tauto]].
  destruct (N.eqb_spec (le_list D) (fnv64a (A ++ B ++ C))); simpl; [tauto | split; [discriminate | tauto]].
Qed.

Lemma validate_segments pre post A B C D :
  length A = 4%nat -> length B = 4%nat -> length C = 48%nat -> length D = 8%nat ->
  (validate_at (rd_of (pre ++ (A ++ B ++ C ++ D) ++ post)) (N.of_nat (length pre)) = MOk <-> valid_segments A B C D).
Proof. intros LA LB LC LD. apply validate_window; try assumption. apply has_bytes_rd_of. Qed.

Lemma meta_validates rd b m : has_bytes rd b (enc_meta m) -> meta_fields_ok m ->
  m_magic m = magic -> m_version m = version -> validate_at rd b = MOk.
Proof.
  intros W Hok Hm Hv. unfold validate_at, meta_sum_at. rewrite (meta_read rd b m W Hok).
  cbn [with_sum m_magic m_version m_sum]. rewrite Hm, Hv.
  apply has_bytes_take in W. unfold has_bytes in W. change (length (enc_meta_body m)) with 56%nat in W.
  now rewrite W, fnv64a_fast_eq, !N.eqb_refl.
Qed.

Theorem meta_written_validates m pre post : meta_fields_ok m ->
  m_magic m = magic -> m_version m = version ->
  validate_at (rd_of (pre ++ enc_meta m ++ post)) (N.of_nat (length pre)) = MOk.
Proof. apply meta_validates, has_bytes_rd_of. Qed.

(** * a single altered byte anywhere in the 64-byte meta structure is detected (C11) *)
Lemma le_list_inj l1 : forall l2, length l1 = length l2 -> Forall isbyte l1 -> Forall isbyte l2 ->
  le_list l1 = le_list l2 -> l1 = l2.
Proof.
  induction l1 as [|a l1 IH]; intros [|b l2] HL F1 F2 E; simpl in HL; try discriminate; [reflexivity|].
  inversion F1; subst. inversion F2; subst. cbn [le_list fold_right] in E.
  unfold isbyte in *. fold (le_list l1) in E. fold (le_list l2) in E.
  assert (a = b /\ le_list l1 = le_list l2) as [-> E2] by lia.
  f_equal. apply IH; auto.
Qed.

Inductive one_byte_changed : list N -> list N -> Prop :=
| obc : forall l1 b b' l2, isbyte b -> isbyte b' -> b <> b' -> one_byte_changed (l1 ++ b :: l2) (l1 ++ b' :: l2).

Lemma obc_le_list l l' : one_byte_changed l l' -> Forall isbyte l -> le_list l <> le_list l'.
Proof.
  intros H F E. destruct H as [l1 b b' l2 Hb Hb' Hne].
  assert (F' : Forall isbyte (l1 ++ b' :: l2)).
  { apply Forall_app in F. destruct F as [Fa Fb]. inversion Fb; subst. apply Forall_app. split; [exact Fa | constructor; assumption]. }
  apply le_list_inj in E; auto; [|now rewrite !app_length]. apply app_inv_head in E. inversion E. congruence.
Qed.

Theorem single_byte_damage_detected A B C D A' B' C' D' :
  length A = 4%nat -> length B = 4%nat -> length C = 48%nat -> length D = 8%nat ->
  Forall isbyte (A ++ B ++ C ++ D) ->
  valid_segments A B C D ->
  (one_byte_changed A A' /\ B' = B /\ C' = C /\ D' = D) \/
  (A' = A /\ one_byte_changed B B' /\ C' = C /\ D' = D) \/
  (A' = A /\ B' = B /\ one_byte_changed C C' /\ D' = D) \/
  (A' = A /\ B' = B /\ C' = C /\ one_byte_changed D D') ->
  ~ valid_segments A' B' C' D'.
Proof.
  intros LA LB LC LD F (V1 & V2 & V3) H (W1 & W2 & W3).
  apply Forall_app in F. destruct F as [FA F]. apply Forall_app in F. destruct F as [FB F].
  apply Forall_app in F. destruct F as [FC FD].
  destruct H as [(H & -> & -> & ->)|[(-> & H & -> & ->)|[(-> & -> & H & ->)|(-> & -> & -> & H)]]].
  - apply (obc_le_list _ _ H FA). congruence.
  - apply (obc_le_list _ _ H FB). congruence.
  - (* the checksummed content changed in one byte: FNV-1a changes (Fnv.single_byte_change) *)
    destruct H as [c1 b b' c2 Hb Hb' Hne].
    apply Forall_app in FC. destruct FC as [Fc1 Fc2]. inversion Fc2; subst.
    match goal with Hc2 : Forall isbyte c2 |- _ =>
      refine (single_byte_change (A ++ B ++ c1) b b' c2 fnv_offset _ _ Hb Hb' Hc2 Hne _) end.
    + reflexivity.
    + apply Forall_app; split; [exact FA | apply Forall_app; split; assumption].
    + unfold fnv64a in V3, W3. rewrite <- !app_assoc. rewrite <- V3, <- W3. reflexivity.
  - apply (obc_le_list _ _ H FD). congruence.
Qed.

Section OpenProofs.
  Variable rd : N -> N.
  Variable flen dps : N.

  Definition valid0 := validate_at rd page_header_size = MOk.
  Definition valid1 (ps : N) := validate_at rd (ps + page_header_size) = MOk.
  Definition meta0 := rd_meta_at rd page_header_size.
  Definition meta1 (ps : N) := rd_meta_at rd (ps + page_header_size).

  Lemma meta_valid_at_spec b : reflect (validate_at rd b = MOk) (meta_valid_at rd b).
  Proof. unfold meta_valid_at. destruct (validate_at rd b); constructor; congruence. Qed.

  (** C11: Open never presents a state through a meta page that fails validation, never a file shorter than two
      pages or than its own high-water mark *)
  Theorem open_ok_uses_valid_meta ps m : open_model rd flen dps = OpenOk ps m ->
    ((m = meta0 /\ valid0) \/ (m = meta1 ps /\ valid1 ps)) /\ 2 * ps <= flen /\ m_mark m * ps <= flen.
  Proof.
    unfold open_model, valid0, valid1, meta0, meta1.
    destruct (page_size_model rd flen dps (validate_at rd page_header_size)) as [ps0|]; [|discriminate].
    destruct (N.ltb_spec flen (2 * ps0)); [discriminate|].
    fold (meta_valid_at rd page_header_size). fold (meta_valid_at rd (ps0 + page_header_size)).
    set (m0 := rd_meta_at rd page_header_size). set (m1 := rd_meta_at rd (ps0 + page_header_size)).
    destruct (meta_valid_at_spec page_header_size) as [V0|_], (meta_valid_at_spec (ps0 + page_header_size)) as [V1|_];
      cbn [negb orb]; [| | | discriminate].
    (* a slot validates: whichever way the txid comparison goes db.meta() picks a valid one, and the answer is
       OpenOk only if the mark test passes *)
    all: destruct (m_txid m0 <? m_txid m1);
      (destruct (flen <? _) eqn:HM; [discriminate|]); apply N.ltb_ge in HM; intros [= <- <-]; auto.
  Qed.

  Theorem open_rejects_when_both_invalid :
    ~ valid0 -> (forall ps, ~ valid1 ps) -> forall ps m, open_model rd flen dps <> OpenOk ps m.
  Proof.
    intros H0 H1 ps m E. apply open_ok_uses_valid_meta in E. destruct E as [[[_ V]|[_ V]] _]; [exact (H0 V) | exact (H1 _ V)].
  Qed.

  (** db.meta(), page size detected and file long enough: a slot is presented if it validates and the other one,
      if it validates too, does not carry a newer transaction (slot 1 needs a strictly larger id) *)
  Lemma open_presents_meta0 ps :
    page_size_model rd flen dps (validate_at rd page_header_size) = Some ps -> 2 * ps <= flen ->
    valid0 -> (valid1 ps -> m_txid (meta1 ps) <= m_txid meta0) -> m_mark meta0 * ps <= flen ->
    open_model rd flen dps = OpenOk ps meta0.
  Proof.
    unfold open_model, valid0, valid1, meta0, meta1. intros -> HL V0 T HM. apply N.ltb_ge in HL, HM. rewrite HL.
    fold (meta_valid_at rd page_header_size). fold (meta_valid_at rd (ps + page_header_size)).
    destruct (meta_valid_at_spec page_header_size); [|contradiction]. cbn [negb orb].
    destruct (N.ltb_spec (m_txid (rd_meta_at rd page_header_size)) (m_txid (rd_meta_at rd (ps + page_header_size))));
      [|now rewrite HM].
    destruct (meta_valid_at_spec (ps + page_header_size)) as [V1|_]; [specialize (T V1); lia | now rewrite HM].
  Qed.

  Lemma open_presents_meta1 ps :
    page_size_model rd flen dps (validate_at rd page_header_size) = Some ps -> 2 * ps <= flen ->
    valid1 ps -> (valid0 -> m_txid meta0 < m_txid (meta1 ps)) -> m_mark (meta1 ps) * ps <= flen ->
    open_model rd flen dps = OpenOk ps (meta1 ps).
  Proof.
    unfold open_model, valid0, valid1, meta0, meta1. intros -> HL V1 T HM. apply N.ltb_ge in HL, HM. rewrite HL.
    fold (meta_valid_at rd page_header_size). fold (meta_valid_at rd (ps + page_header_size)).
    destruct (meta_valid_at_spec (ps + page_header_size)); [|contradiction]. rewrite orb_true_r. cbn [negb].
    destruct (N.ltb_spec (m_txid (rd_meta_at rd page_header_size)) (m_txid (rd_meta_at rd (ps + page_header_size))));
      [now rewrite HM|].
    destruct (meta_valid_at_spec page_header_size) as [V0|_]; [specialize (T V0); lia | now rewrite HM].
  Qed.

  Theorem open_falls_back_to_the_valid_meta ps :
    page_size_model rd flen dps (validate_at rd page_header_size) = Some ps -> 2 * ps <= flen ->
    (valid0 /\ ~ valid1 ps /\ m_mark meta0 * ps <= flen -> open_model rd flen dps = OpenOk ps meta0) /\
    (~ valid0 /\ valid1 ps /\ m_mark (meta1 ps) * ps <= flen -> open_model rd flen dps = OpenOk ps (meta1 ps)).
  Proof.
    intros HP HL. split; intros (V0 & V1 & HM); [apply open_presents_meta0 | apply open_presents_meta1];
      try assumption; intros V; contradiction.
  Qed.

  Theorem open_prefers_newer ps :
    page_size_model rd flen dps (validate_at rd page_header_size) = Some ps -> 2 * ps <= flen ->
    valid0 -> valid1 ps ->
    let m := if m_txid meta0 <? m_txid (meta1 ps) then meta1 ps else meta0 in
    m_mark m * ps <= flen -> open_model rd flen dps = OpenOk ps m.
  Proof.
    intros HP HL V0 V1 m. subst m. destruct (N.ltb_spec (m_txid meta0) (m_txid (meta1 ps))); intros HM;
      [apply open_presents_meta1 | apply open_presents_meta0]; auto.
  Qed.

  (** page-size detection with a damaged first meta: the first probe offset 1024*2^i that carries a valid meta
      is found, provided the earlier probe offsets (inside page 0's zero tail) do not validate *)
  Lemma probe_second_finds k : forall i pos,
    (k < i)%nat ->
    (forall j, (j < k)%nat -> meta_valid_at rd (pos * 2 ^ N.of_nat j + page_header_size) = false) ->
    meta_valid_at rd (pos * 2 ^ N.of_nat k + page_header_size) = true ->
    pos * 2 ^ N.of_nat k < flen - 1024 ->
    probe_second rd flen i pos = Some (m_pagesize (rd_meta_at rd (pos * 2 ^ N.of_nat k + page_header_size))).
  Proof.
    induction k as [|k IH]; intros i pos Hi Hinv Hv Hlen.
    - destruct i as [|i]; [lia|]. cbn [probe_second]. change (2 ^ N.of_nat 0) with 1 in *. rewrite N.mul_1_r in *.
      destruct (N.leb_spec (flen - 1024) pos); [lia|]. rewrite Hv. reflexivity.
    - destruct i as [|i]; [lia|]. cbn [probe_second].
      assert (P : pos * 2 ^ N.of_nat (S k) = (2 * pos) * 2 ^ N.of_nat k).
      { rewrite Nat2N.inj_succ, N.pow_succ_r'. lia. }
      assert (Hpos : pos <= pos * 2 ^ N.of_nat (S k)).
      { rewrite <- (N.mul_1_r pos) at 1. apply N.mul_le_mono_l. pose proof (N.pow_nonzero 2 (N.of_nat (S k))). lia. }
      destruct (N.leb_spec (flen - 1024) pos); [lia|].
      pose proof (Hinv O ltac:(lia)) as H0. change (2 ^ N.of_nat 0) with 1 in H0. rewrite N.mul_1_r in H0. rewrite H0.
      rewrite P in *. apply IH; [lia | | exact Hv | exact Hlen].
      intros j Hj. specialize (Hinv (S j) ltac:(lia)).
      replace (pos * 2 ^ N.of_nat (S j)) with (2 * pos * 2 ^ N.of_nat j) in Hinv; [exact Hinv|].
      rewrite Nat2N.inj_succ, N.pow_succ_r'. lia.
  Qed.
End OpenProofs.

(** a backup copy carries the snapshot's meta in slot 0 and the same meta with txid-1 in slot 1: Open presents slot 0 *)
Theorem backup_meta0_wins rd flen dps ps :
  page_size_model rd flen dps (validate_at rd page_header_size) = Some ps -> 2 * ps <= flen ->
  valid0 rd -> valid1 rd ps -> 1 <= m_txid (meta0 rd) -> m_txid (meta1 rd ps) = m_txid (meta0 rd) - 1 ->
  m_mark (meta0 rd) * ps <= flen ->
  open_model rd flen dps = OpenOk ps (meta0 rd).
Proof. intros HP HL V0 V1 H1 Ht HM. apply open_presents_meta0; try assumption. intros _. lia. Qed.

Definition set_freelist (m : meta) (fl : N) : meta :=
  {| m_magic := m_magic m; m_version := m_version m; m_pagesize := m_pagesize m; m_flags := m_flags m;
     m_root := m_root m; m_seq := m_seq m; m_fl := fl; m_mark := m_mark m; m_txid := m_txid m; m_sum := m_sum m |}.

(** C20, ClearFreelist: a meta whose freelist field is set to "none" and whose checksum is recomputed validates again,
    and reads back with every other field untouched *)
Theorem abandon_meta_valid m pre post : meta_fields_ok m -> m_magic m = magic -> m_version m = version ->
  let m' := set_freelist m pgid_no_freelist in
  validate_at (rd_of (pre ++ enc_meta m' ++ post)) (N.of_nat (length pre)) = MOk /\
  rd_meta_at (rd_of (pre ++ enc_meta m' ++ post)) (N.of_nat (length pre)) = with_sum m'.
Proof.
  intros Hok Hm Hv m'.
  assert (Hok' : meta_fields_ok m').
  { destruct Hok as (H1 & H2 & H3 & H4 & H5 & H6 & H7 & H8 & H9). unfold m', set_freelist, meta_fields_ok. simpl.
    repeat split; try assumption. }
  split; [apply meta_written_validates; assumption | apply meta_roundtrip; exact Hok'].
Qed.

(** C20, RevertMetaPage: when both slots hold the same (older) meta, Open presents it *)
Theorem revert_presents_older rd flen dps ps :
  page_size_model rd flen dps (validate_at rd page_header_size) = Some ps -> 2 * ps <= flen ->
  valid0 rd -> valid1 rd ps -> m_txid (meta1 rd ps) = m_txid (meta0 rd) -> m_mark (meta0 rd) * ps <= flen ->
  open_model rd flen dps = OpenOk ps (meta0 rd).
Proof. intros HP HL V0 V1 Ht HM. apply open_presents_meta0; try assumption. intros _. lia. Qed.

(** * accounting (C07, C19): the decision procedure says "yes" exactly when every id in [2, mark) is listed once *)
Lemma run_nat_nodup p n : NoDup (run_nat p n).
Proof.
  revert p; induction n as [|n IH]; intros p; simpl; constructor; [|apply IH].
  rewrite run_nat_in. lia.
Qed.

Lemma run_nat_ss p n : StronglySorted N.le (run_nat p n).
Proof.
  revert p; induction n as [|n IH]; intros p; simpl; constructor; [apply IH|].
  apply Forall_forall. intros x Hx. apply run_nat_in in Hx. lia.
Qed.

(** a list sorts to a run of consecutive numbers iff it lists exactly those numbers, each once: both are sorted,
    and a sorted list is determined by its elements *)
Lemma sorts_to_run l p n :
  eqlN (sortN l) (run p n) = true <-> NoDup l /\ (forall x, In x l <-> p <= x < p + n).
Proof.
  rewrite eqlN_true_iff. setoid_rewrite <- run_in. split.
  - intros H. pose proof (sortN_perm l) as P. rewrite H in P. split.
    + apply (Permutation_NoDup (Permutation_sym P)), run_nat_nodup.
    + intros x. split; apply Permutation_in; [exact P | symmetry; exact P].
  - intros [ND E]. apply ssorted_perm_eq; [apply sortN_ssorted | apply run_nat_ss |].
    rewrite <- sortN_perm. apply NoDup_Permutation; [exact ND | apply run_nat_nodup | exact E].
Qed.

Theorem accounted_sound v free :
    accounted v free = true ->
    let all := page_ids (v_pages v) ++ v_flpage v ++ free in
    NoDup all /\ (forall id, In id all <-> 2 <= id < m_mark (v_meta v) \/ False).
Proof.
  unfold accounted. intros H. apply sorts_to_run in H as [ND E]. split; [exact ND|]. intros id. rewrite E. lia.
Qed.

Theorem accounted_complete (v : dbview) free :
  let all := page_ids (v_pages v) ++ v_flpage v ++ free in
  NoDup all -> (forall id, In id all <-> 2 <= id < m_mark (v_meta v)) -> accounted v free = true.
Proof. intros all ND E. apply sorts_to_run. split; [exact ND|]. intros id. fold all. rewrite E. lia. Qed.
