(** The invariant of the page-level transaction system and its consequences (C01 C02 C06 C07 C08 C10 C13 C14 C20). *)
From Bbolt Require Import Base BaseProofs Pager.

Record Inv (s : pg) : Prop := {
  iM : 2 <= g_mark s;
  iF1 : forall x, In x (g_free s) -> 2 <= x < g_mark s;
  iF2 : forall e, In e (g_pend s) -> 2 <= e_pg e < g_mark s;
  iF3 : forall x, In x (g_pages s) -> 2 <= x < g_mark s;
  iD1 : forall x, In x (g_free s) -> ~ In x (pend_pages s);
  iD2 : forall x, In x (g_free s) -> ~ In x (g_pages s);
  iD3 : forall e, In e (g_pend s) -> In (e_pg e) (g_pages s) ->
        exists w, g_w s = Some w /\ e_tx e = w_id w /\ In (e_pg e) (w_freed w);
  iT : forall e, In e (g_pend s) -> e_tx e <= g_cur s \/ (exists w, g_w s = Some w /\ e_tx e = w_id w /\ In (e_pg e) (w_freed w));
  iA2 : forall e, In e (g_pend s) -> e_atx e <= g_cur s;
  iW : forall w, g_w s = Some w ->
       w_id w = g_cur s + 1 /\ g_mark s <= w_mark w /\
       (forall p, In p (w_freed w) -> In p (g_pages s) /\ In p (pend_pages s)) /\
       (forall p, In p (w_alloc w) -> 2 <= p < w_mark w /\ ~ In p (g_free s) /\ ~ In p (g_pages s) /\ ~ In p (pend_pages s)) /\
       (forall x, g_mark s <= x < w_mark w -> In x (w_alloc w));
  iCov : forall x, 2 <= x < g_mark s ->
         In x (g_free s) \/ In x (pend_pages s) \/ In x (g_pages s) \/ (exists w, g_w s = Some w /\ In x (w_alloc w));
  iH1 : In (g_cur s, g_pages s) (g_hist s);
  iH2 : forall v P, In (v, P) (g_hist s) -> v <= g_cur s /\ (forall x, In x P -> 2 <= x < g_mark s);
  iH3 : forall P, In (g_cur s, P) (g_hist s) -> P = g_pages s;
  iR1 : forall r, In r (g_readers s) -> r <= g_cur s;
  iS1 : forall r P x, In r (g_readers s) -> In (r, P) (g_hist s) -> In x P ->
        ~ In x (g_free s) /\ (forall w, g_w s = Some w -> ~ In x (w_alloc w));
  iS2 : forall e r P, In e (g_pend s) -> In r (g_readers s) -> In (r, P) (g_hist s) -> In (e_pg e) P ->
        e_atx e <= r /\ r < e_tx e;
  iA1 : forall p a, In (p, a) (g_atx s) -> a <= g_cur s \/ (exists w, g_w s = Some w /\ a = w_id w /\ In p (w_alloc w));
  iS3 : forall p a r P, In (p, a) (g_atx s) -> In r (g_readers s) -> In (r, P) (g_hist s) -> In p P -> a <= r
}.

Lemma in_minus x l rm : In x (minus l rm) <-> In x l /\ ~ In x rm.
Proof. unfold minus. rewrite filter_In, negb_memN. reflexivity. Qed.

Lemma in_minus1 x l p : In x (minus l [p]) <-> In x l /\ x <> p.
Proof. unfold minus. rewrite filter_In. simpl. rewrite orb_false_r, negb_true_iff, N.eqb_neq. reflexivity. Qed.

Lemma in_remove1 x y l : In x (remove1 y l) -> In x l.
Proof.
  induction l as [|z l IH]; simpl; [tauto|]. destruct (y =? z); simpl; intuition.
Qed.

Lemma lookupN_in k l : lookupN k l <> 0 -> In (k, lookupN k l) l.
Proof.
  induction l as [|[k' v] l IH]; simpl; [congruence|].
  destruct (N.eqb_spec k k') as [->|Hne]; intros H; [left; reflexivity | right; auto].
Qed.

Lemma pend_pages_in s x : In x (pend_pages s) <-> exists e, In e (g_pend s) /\ e_pg e = x.
Proof.
  unfold pend_pages. rewrite in_map_iff. split; intros [e [A B]]; exists e; tauto.
Qed.

Lemma in_pp_snoc x e Pd : In x (map e_pg (Pd ++ [e])) <-> In x (map e_pg Pd) \/ e_pg e = x.
Proof. rewrite map_app. apply in_snoc. Qed.

Lemma in_pp_unreleased rel Pd x :
  In x (map e_pg (filter (fun e => negb (memN (e_pg e) rel)) Pd)) <-> In x (map e_pg Pd) /\ ~ In x rel.
Proof.
  rewrite !in_map_iff. split.
  - intros (e & <- & He). apply filter_In in He. destruct He as [He Hn]. apply negb_memN in Hn. eauto.
  - intros [(e & <- & He) Hn]. exists e. rewrite filter_In, negb_memN. auto.
Qed.

Lemma in_pend_of_others t Pd e : In e (filter (fun e => negb (e_tx e =? t)) Pd) <-> In e Pd /\ e_tx e <> t.
Proof. rewrite filter_In, negb_true_iff, N.eqb_neq. reflexivity. Qed.

Lemma in_free_restored F m al x : In x (F ++ filter (fun p => p <? m) al) <-> In x F \/ In x al /\ x < m.
Proof. rewrite in_app_iff, filter_In, N.ltb_lt. reflexivity. Qed.

Lemma free_restored_alloc F m al p x : In p F -> p < m ->
  In x (minus F [p] ++ filter (fun q => q <? m) (p :: al)) <-> In x (F ++ filter (fun q => q <? m) al).
Proof.
  intros G Hlt. simpl. rewrite (proj2 (N.ltb_lt _ _) Hlt), !in_app_iff, in_minus1. simpl.
  split; [intros [[H _]|[<-|H]] | intros [H|H]]; auto. destruct (N.eq_dec x p); auto.
Qed.

Lemma in_pages_committed Pg fr al x : In x (minus Pg fr ++ al) <-> In x Pg /\ ~ In x fr \/ In x al.
Proof. rewrite in_app_iff, in_minus. reflexivity. Qed.

Lemma in_removeK_sub k0 l e : In e (removeK k0 l) -> In e l.
Proof. apply in_filter_sub. Qed.
Lemma in_minus_sub l rm x : In x (minus l rm) -> In x l.
Proof. apply in_filter_sub. Qed.
Lemma in_pp_filter_sub f Pd x : In x (map e_pg (filter f Pd)) -> In x (map e_pg Pd).
Proof. rewrite !in_map_iff. intros (e & E & He). eauto using in_filter_sub. Qed.

(** a clause that only shrinks one of its lists is closed by [eauto with sub] *)
Create HintDb sub.
#[local] Hint Immediate in_remove1 in_filter_sub in_removeK_sub in_minus_sub : sub.

(** No open writer is read as a writer that has freed and allocated nothing: the clauses of [Inv] that speak of
    the writer then need no case on [g_w], and begin, commit and rollback of a writer rewrite lists only. *)
Definition w_view (s : pg) : wtx :=
  match g_w s with
  | Some w => w
  | None => {| w_id := g_cur s + 1; w_mark := g_mark s; w_freed := []; w_alloc := [] |}
  end.

Lemma view_of_writer s (Q : wtx -> Prop) : (exists w, g_w s = Some w /\ Q w) -> Q (w_view s).
Proof. intros (w & E & H). unfold w_view. rewrite E. exact H. Qed.

Lemma writer_of_view s x (Q : wtx -> Prop) :
  In x (w_freed (w_view s)) \/ In x (w_alloc (w_view s)) -> Q (w_view s) -> exists w, g_w s = Some w /\ Q w.
Proof. unfold w_view. destruct (g_w s) as [w|]; simpl; [eauto | tauto]. Qed.

(** clause [iW], stated over the lists it mentions so that a step which leaves them alone keeps it as it is *)
Record writer (F : list N) (Pd : list (N * N * N)) (c m : N) (Pg : list N) (w : wtx) : Prop := {
  wId : w_id w = c + 1;
  wMark : m <= w_mark w;
  fG : forall p, In p (w_freed w) -> In p Pg;
  fP : forall p, In p (w_freed w) -> In p (map e_pg Pd);
  aB : forall p, In p (w_alloc w) -> 2 <= p < w_mark w;
  aF : forall p, In p (w_alloc w) -> ~ In p F;
  aG : forall p, In p (w_alloc w) -> ~ In p Pg;
  aP : forall p, In p (w_alloc w) -> ~ In p (map e_pg Pd);
  wFill : forall x, m <= x < w_mark w -> In x (w_alloc w)
}.
Arguments wId {F Pd c m Pg w}.
Arguments aG {F Pd c m Pg w}.

Lemma writer_fresh F Pd c m Pg : writer F Pd c m Pg {| w_id := c + 1; w_mark := m; w_freed := []; w_alloc := [] |}.
Proof. constructor; simpl; intros; try lia; contradiction. Qed.

Record inv_at (s : pg) (w : wtx) : Prop := {
  vM : 2 <= g_mark s;
  vF1 : forall x, In x (g_free s) -> 2 <= x < g_mark s;
  vF2 : forall e, In e (g_pend s) -> 2 <= e_pg e < g_mark s;
  vF3 : forall x, In x (g_pages s) -> 2 <= x < g_mark s;
  vD1 : forall x, In x (g_free s) -> ~ In x (map e_pg (g_pend s));
  vD2 : forall x, In x (g_free s) -> ~ In x (g_pages s);
  vD3 : forall e, In e (g_pend s) -> In (e_pg e) (g_pages s) -> e_tx e = w_id w /\ In (e_pg e) (w_freed w);
  vT : forall e, In e (g_pend s) -> e_tx e <= g_cur s \/ e_tx e = w_id w /\ In (e_pg e) (w_freed w);
  vA2 : forall e, In e (g_pend s) -> e_atx e <= g_cur s;
  vW : writer (g_free s) (g_pend s) (g_cur s) (g_mark s) (g_pages s) w;
  vCov : forall x, 2 <= x < g_mark s ->
         In x (g_free s) \/ In x (map e_pg (g_pend s)) \/ In x (g_pages s) \/ In x (w_alloc w);
  vH1 : In (g_cur s, g_pages s) (g_hist s);
  vH2 : forall v P, In (v, P) (g_hist s) -> v <= g_cur s /\ (forall x, In x P -> 2 <= x < g_mark s);
  vH3 : forall P, In (g_cur s, P) (g_hist s) -> P = g_pages s;
  vR1 : forall r, In r (g_readers s) -> r <= g_cur s;
  vS1 : forall r P x, In r (g_readers s) -> In (r, P) (g_hist s) -> In x P -> ~ In x (g_free s);
  vS1' : forall r P x, In r (g_readers s) -> In (r, P) (g_hist s) -> In x P -> ~ In x (w_alloc w);
  vS2 : forall e r P, In e (g_pend s) -> In r (g_readers s) -> In (r, P) (g_hist s) -> In (e_pg e) P ->
        e_atx e <= r /\ r < e_tx e;
  vA1 : forall p a, In (p, a) (g_atx s) -> a <= g_cur s \/ a = w_id w /\ In p (w_alloc w);
  vS3 : forall p a r P, In (p, a) (g_atx s) -> In r (g_readers s) -> In (r, P) (g_hist s) -> In p P -> a <= r
}.

Lemma view_of_inv s : Inv s -> inv_at s (w_view s).
Proof.
  intros [M0 F1 F2 F3 D1 D2 D3 T A2 W Cov H1 H2 H3 R1 S1 S2 A1 S3]. constructor; try assumption.
  - intros e He Hc. exact (view_of_writer s _ (D3 e He Hc)).
  - intros e He. destruct (T e He) as [X|X]; [left; exact X | right; exact (view_of_writer s _ X)].
  - unfold w_view. destruct (g_w s) as [w|]; [|apply writer_fresh].
    destruct (W w eq_refl) as (? & ? & Wf & Wa & ?). constructor; auto; intros p Hp; solve [apply (Wf p Hp) | apply (Wa p Hp)].
  - intros x Hx. destruct (Cov x Hx) as [X|[X|[X|X]]]; auto. do 3 right. exact (view_of_writer s _ X).
  - intros r P x Hr HP Hx. apply (S1 r P x Hr HP Hx).
  - intros r P x Hr HP Hx Ha.
    destruct (writer_of_view s x (fun w => In x (w_alloc w)) (or_intror Ha) Ha) as (w & E & Hw).
    exact (proj2 (S1 r P x Hr HP Hx) w E Hw).
  - intros p a Ha. destruct (A1 p a Ha) as [X|X]; [left; exact X | right; exact (view_of_writer s _ X)].
Qed.

Lemma inv_of_view s : inv_at s (w_view s) -> Inv s.
Proof.
  intros [M0 F1 F2 F3 D1 D2 D3 T A2 [Wi Wm Wf Wf' Wa1 Wa2 Wa3 Wa4 Wc] Cov H1 H2 H3 R1 S1 S1' S2 A1 S3].
  assert (V : forall w, g_w s = Some w -> w_view s = w).
  { intros w E. unfold w_view. rewrite E. reflexivity. }
  constructor; try assumption.
  - intros e He Hc. destruct (D3 e He Hc) as [X Y]. eapply writer_of_view; eauto.
  - intros e He. destruct (T e He) as [X|[X Y]]; [left; exact X | right; eapply writer_of_view; eauto].
  - (* [iW]: its clause on the freed pages pairs [fG] with [fP], the one on the allocated pages [aB], [aF], [aG], [aP] *)
    intros w E. rewrite <- (V w E). unfold pend_pages. refine (conj Wi (conj Wm (conj _ (conj _ Wc)))); auto 6.
  - intros x Hx. destruct (Cov x Hx) as [X|[X|[X|X]]]; auto. do 3 right. eapply writer_of_view; eauto.
  - intros r P x Hr HP Hx. split; [eauto|]. intros w E. rewrite <- (V w E). eauto.
  - intros p a Ha. destruct (A1 p a Ha) as [X|[X Y]]; [left; exact X | right; eapply writer_of_view; eauto].
Qed.

Theorem inv_open cur mark pages free : 2 <= mark ->
  (forall x, In x free -> 2 <= x < mark) -> (forall x, In x pages -> 2 <= x < mark) ->
  (forall x, In x free -> ~ In x pages) ->
  (forall x, 2 <= x < mark -> In x free \/ In x pages) ->
  Inv (pg_open cur mark pages free).
Proof.
  intros HM HF HP HD HC. constructor; simpl; auto; try (intros; contradiction).
  - intros w E. discriminate.
  - intros x Hx. destruct (HC x Hx); auto.
  - intros v P [E|[]]. inversion E; subst. split; [lia | auto].
  - intros P [E|[]]. inversion E; reflexivity.
Qed.

Ltac inv_some H := injection H as H; subst.

(** the new reader views the newest version: its pages are not free, and whatever is pending or taken from
    the free list there was freed or taken by the open writer, whose id is [g_cur s + 1] *)
Lemma inv_beginr s s' : Inv s -> pstep s LBeginR = Some s' -> Inv s'.
Proof.
  intros I H. simpl in H. inv_some H. apply view_of_inv in I. apply inv_of_view.
  destruct I as [M0 F1 F2 F3 D1 D2 D3 T A2 W Cov H1 H2 H3 R1 S1 S1' S2 A1 S3]. constructor; simpl; try assumption.
  - intros r [<-|Hr]; [lia | auto].
  - intros r P x [<-|Hr] HP Hx; [|eauto]. apply H3 in HP. subst P. intros HF. exact (D2 _ HF Hx).
  - intros r P x [<-|Hr] HP Hx; [|eauto]. apply H3 in HP. subst P. intros Ha. exact (aG W _ Ha Hx).
  - intros e r P He [<-|Hr] HP Hx; [|eauto]. apply H3 in HP. subst P. destruct (D3 e He Hx) as [-> _].
    rewrite (wId W). split; [exact (A2 e He) | lia].
  - intros p a r P Ha [<-|Hr] HP Hx; [|eauto]. apply H3 in HP. subst P.
    destruct (A1 _ _ Ha) as [Hle|[_ Hal]]; [exact Hle | destruct (aG W _ Hal Hx)].
Qed.

Lemma inv_endr s r s' : Inv s -> pstep s (LEndR r) = Some s' -> Inv s'.
Proof.
  intros I H. simpl in H. destruct (memN r (g_readers s)); [|discriminate]. inv_some H.
  apply view_of_inv in I. apply inv_of_view. destruct I. constructor; simpl; try assumption;
    eauto with sub. (* vR1, vS1, vS1', vS2, vS3: fewer readers are open *)
Qed.

Lemma releasable_spec readers e : releasable readers e = true ->
  forall r, In r readers -> ~ (e_atx e <= r /\ r < e_tx e).
Proof.
  unfold releasable. rewrite negb_true_iff. intros H r Hr [A B].
  assert (X : existsb (seen_by e) readers = true).
  { apply existsb_exists. exists r. split; [exact Hr|]. unfold seen_by.
    apply andb_true_iff. split; [apply N.leb_le; exact A | apply N.ltb_lt; exact B]. }
  congruence.
Qed.

Lemma inv_beginw s rel s' : Inv s -> pstep s (LBeginW rel) = Some s' -> Inv s'.
Proof.
  intros I H. apply view_of_inv in I. unfold w_view in I. simpl in H. destruct (g_w s); [discriminate|].
  destruct (forallb _ (g_pend s) && forallb _ rel) eqn:G; [|discriminate].
  apply andb_true_iff in G. destruct G as [G1 G2]. rewrite forallb_forall in G1, G2.
  inv_some H. apply inv_of_view. destruct I as [M0 F1 F2 F3 D1 D2 D3 T A2 W Cov H1 H2 H3 R1 S1 S1' S2 A1 S3].
  simpl in D3, T. (* no writer is open: its view has freed nothing *)
  assert (RelP : forall x, In x rel -> exists e, In e (g_pend s) /\ e_pg e = x).
  { intros x Hx. apply pend_pages_in, memN_in, G2, Hx. }
  constructor; simpl; try assumption.
  - intros x Hx. apply in_app_iff in Hx. destruct Hx as [Hx|Hx]; [auto|].
    destruct (RelP x Hx) as (e & He & <-). auto.
  - eauto with sub. (* vF2: fewer entries are pending *)
  - intros x Hx Hp. apply in_pp_unreleased in Hp. apply in_app_iff in Hx.
    destruct Hx as [Hx|Hx]; [exact (D1 _ Hx (proj1 Hp)) | tauto].
  - intros x Hx. apply in_app_iff in Hx. destruct Hx as [Hx|Hx]; [auto|].
    destruct (RelP x Hx) as (e & He & <-). intros Hc. destruct (D3 e He Hc) as [_ []].
  - eauto with sub. (* vD3, vT, vA2: fewer entries are pending *)
  - eauto with sub.
  - eauto with sub.
  - apply writer_fresh.
  - intros x Hx. rewrite in_pp_unreleased, in_app_iff. destruct (Cov x Hx) as [X|[X|[X|[]]]]; auto.
    destruct (in_dec N.eq_dec x rel); auto.
  - (* a released page is pending and releasable: no reader is inside its interval *)
    intros r P x Hr HP Hx HF. apply in_app_iff in HF. destruct HF as [HF|HF]; [exact (S1 _ _ _ Hr HP Hx HF)|].
    destruct (RelP x HF) as (e & He & <-). specialize (G1 e He). apply orb_true_iff in G1.
    destruct G1 as [G1|G1]; [apply negb_memN in G1; tauto|].
    exact (releasable_spec _ _ G1 r Hr (S2 e r P He Hr HP Hx)).
  - eauto with sub. (* vS2: fewer entries are pending *)
Qed.

Lemma inv_free s p s' : Inv s -> pstep s (LFree p) = Some s' -> Inv s'.
Proof.
  intros I H. apply view_of_inv in I. unfold w_view in I. simpl in H. destruct (g_w s) as [w|]; [|discriminate].
  destruct (memN p (g_pages s) && negb (memN p (w_freed w))) eqn:G; [|discriminate].
  apply andb_true_iff in G. destruct G as [G1 G2]. apply memN_in in G1. apply negb_memN in G2.
  inv_some H. apply inv_of_view. destruct I as [M0 F1 F2 F3 D1 D2 D3 T A2 W Cov H1 H2 H3 R1 S1 S1' S2 A1 S3].
  set (a := lookupN p (g_atx s)).
  assert (Aval : a = 0 \/ In (p, a) (g_atx s)).
  { destruct (N.eq_dec a 0) as [E|E]; [left; exact E | right; apply lookupN_in; exact E]. }
  constructor; simpl; try assumption.
  - intros e He. apply in_snoc in He. destruct He as [He|<-]; [auto | exact (F3 _ G1)].
  - intros x Hx Hp. apply in_pp_snoc in Hp. destruct Hp as [Hp|<-]; [exact (D1 _ Hx Hp) | exact (D2 _ Hx G1)].
  - intros e He Hc. apply in_snoc in He. destruct He as [He|<-]; [destruct (D3 e He Hc)|]; auto.
  - intros e He. apply in_snoc in He. destruct He as [He|<-]; [destruct (T e He) as [?|[? ?]]|]; auto.
  - (* a page of the newest version was not allocated by the open writer *)
    intros e He. apply in_snoc in He. destruct He as [He|<-]; [auto|].
    destruct Aval as [E|Ha]; [unfold e_atx; simpl; lia|].
    destruct (A1 _ _ Ha) as [Hle|[_ Hal]]; [exact Hle | destruct (aG W _ Hal G1)].
  - destruct W as [Wi Wm Wf Wf' Wa1 Wa2 Wa3 Wa4 Wc]. constructor; simpl; try assumption.
    + intros q [<-|Hq]; auto.
    + intros q [<-|Hq]; rewrite in_pp_snoc; auto.
    + intros q Hq. rewrite in_pp_snoc. intros [X|<-]; [exact (Wa4 _ Hq X) | exact (Wa3 _ Hq G1)].
  - intros x Hx. rewrite in_pp_snoc. destruct (Cov x Hx) as [X|[X|[X|X]]]; auto.
  - intros e r P He Hr HP Hx. apply in_snoc in He. destruct He as [He|<-]; [eauto|]. split.
    + destruct Aval as [E|Ha]; [unfold e_atx; simpl; lia | exact (S3 _ _ _ _ Ha Hr HP Hx)].
    + pose proof (R1 _ Hr). unfold e_tx; simpl. rewrite (wId W). lia.
  - eauto with sub. (* vA1, vS3: the record of [p] is dropped *)
  - eauto with sub.
Qed.

Lemma inv_alloc s p s' : Inv s -> pstep s (LAlloc p) = Some s' -> Inv s'.
Proof.
  intros I H. apply view_of_inv in I. unfold w_view in I. simpl in H. destruct (g_w s) as [w|]; [|discriminate].
  destruct I as [M0 F1 F2 F3 D1 D2 D3 T A2 W Cov H1 H2 H3 R1 S1 S1' S2 A1 S3].
  pose proof W as [Wi Wm Wf Wf' Wa1 Wa2 Wa3 Wa4 Wc]. apply inv_of_view. destruct (memN p (g_free s)) eqn:G.
  - apply memN_in in G. inv_some H. constructor; simpl; try assumption.
    + eauto with sub. (* vF1, vD1, vD2: [p] has left the free list *)
    + eauto with sub.
    + eauto with sub.
    + constructor; simpl; try assumption.
      * intros q [<-|Hq]; [|auto]. pose proof (F1 _ G). lia.
      * intros q Hq HF. apply in_minus1 in HF. destruct HF as [HF Hne]. destruct Hq as [<-|Hq]; [exact (Hne eq_refl) | exact (Wa2 _ Hq HF)].
      * intros q [<-|Hq]; [exact (D2 _ G) | auto].
      * intros q [<-|Hq]; [exact (D1 _ G) | auto].
      * auto.
    + intros x Hx. rewrite in_minus1. destruct (Cov x Hx) as [X|[X|[X|X]]]; auto. destruct (N.eq_dec x p); auto.
    + intros r P x Hr HP Hx HF. exact (S1 _ _ _ Hr HP Hx (in_minus_sub _ _ _ HF)).
    + (* no reader views a free page *)
      intros r P x Hr HP Hx [<-|Ha]; [exact (S1 _ _ _ Hr HP Hx G) | exact (S1' _ _ _ Hr HP Hx Ha)].
    + intros q b [E|Ha]; [inversion E; subst; auto|]. apply in_removeK_sub in Ha. destruct (A1 _ _ Ha) as [?|[? ?]]; auto.
    + intros q b r P [E|Ha] Hr HP Hx; [|eauto with sub]. inversion E; subst. destruct (S1 _ _ _ Hr HP Hx G).
  - destruct (N.eqb_spec p (w_mark w)) as [->|Hne]; [|discriminate]. inv_some H.
    constructor; simpl; try assumption.
    + constructor; simpl; try assumption.
      * lia.
      * intros q [<-|Hq]; [|specialize (Wa1 _ Hq)]; lia.
      * intros q [<-|Hq]; [|auto]. intros Hx. apply F1 in Hx. lia.
      * intros q [<-|Hq]; [|auto]. intros Hx. apply F3 in Hx. lia.
      * intros q [<-|Hq]; [|auto]. intros Hx. apply in_map_iff in Hx. destruct Hx as (e & E & He). apply F2 in He. lia.
      * intros x Hx. destruct (N.eq_dec x (w_mark w)) as [->|Hn]; [left; reflexivity | right; apply Wc; lia].
    + intros x Hx. destruct (Cov x Hx) as [X|[X|[X|X]]]; auto.
    + intros r P x Hr HP Hx [<-|Ha]; [|exact (S1' _ _ _ Hr HP Hx Ha)].
      pose proof (proj2 (H2 _ _ HP) _ Hx). lia.
    + intros q b Ha. destruct (A1 _ _ Ha) as [?|[? ?]]; auto.
Qed.

Lemma inv_commit s s' : Inv s -> pstep s LCommit = Some s' -> Inv s'.
Proof.
  intros I H. apply view_of_inv in I. unfold w_view in I. simpl in H. destruct (g_w s) as [w|]; [|discriminate].
  destruct I as [M0 F1 F2 F3 D1 D2 D3 T A2 [Wi Wm Wf Wf' Wa1 Wa2 Wa3 Wa4 Wc] Cov H1 H2 H3 R1 S1 S1' S2 A1 S3].
  inv_some H. apply inv_of_view.
  assert (PB : forall x, In x (minus (g_pages s) (w_freed w) ++ w_alloc w) -> 2 <= x < w_mark w).
  { intros x Hx. apply in_pages_committed in Hx. destruct Hx as [[Hx _]|Hx]; [apply F3 in Hx; lia | auto]. }
  (* a reader, being at most [g_cur s], views none but the old versions *)
  assert (Old : forall r P Pg', In r (g_readers s) -> In (r, P) ((w_id w, Pg') :: g_hist s) -> In (r, P) (g_hist s)).
  { intros r P Pg' Hr [E|HP]; [|exact HP]. inversion E; subst. pose proof (R1 _ Hr). lia. }
  constructor; simpl; try assumption.
  - lia.
  - intros x Hx. apply F1 in Hx. lia.
  - intros e He. apply F2 in He. lia.
  - intros x Hx Hp. apply in_pages_committed in Hp. destruct Hp as [[Hp _]|Hp]; [exact (D2 _ Hx Hp) | exact (Wa2 _ Hp Hx)].
  - intros e He Hc. exfalso. apply in_pages_committed in Hc. destruct Hc as [[Hc Hnf]|Hc].
    + destruct (D3 e He Hc) as [_ Hf]. exact (Hnf Hf).
    + exact (Wa4 _ Hc (in_map _ _ _ He)).
  - intros e He. left. destruct (T e He) as [Hle|[-> _]]; lia.
  - intros e He. pose proof (A2 e He). lia.
  - apply writer_fresh.
  - intros x Hx. rewrite in_pages_committed. destruct (N.lt_ge_cases x (g_mark s)) as [Hlt|Hge].
    + destruct (Cov x (conj (proj1 Hx) Hlt)) as [X|[X|[X|X]]]; auto. destruct (in_dec N.eq_dec x (w_freed w)); auto 6.
    + right; right; left. right. apply Wc. lia.
  - auto. (* vH1 *)
  - intros v P [E|HP]; [inversion E; subst; split; [lia | exact PB]|].
    destruct (H2 _ _ HP) as [Hv Hb]. split; [lia|]. intros x Hx. specialize (Hb x Hx). lia.
  - intros P [E|HP]; [inversion E; reflexivity | destruct (H2 _ _ HP); lia].
  - intros r Hr. pose proof (R1 _ Hr). lia.
  - eauto. (* vS1, and vS2, vS3 below: by [Old] *)
  - auto. (* vS1': nothing is allocated *)
  - eauto.
  - intros p a Ha. left. destruct (A1 _ _ Ha) as [Hle|[-> _]]; lia.
  - eauto.
Qed.

Lemma in_fold_atx (undone : list (N * N * N)) : forall al p a,
  In (p, a) (fold_left (fun al e => if e_atx e =? 0 then al else (e_pg e, e_atx e) :: removeK (e_pg e) al) undone al) ->
  In (p, a) al \/ exists e, In e undone /\ e_pg e = p /\ e_atx e = a /\ a <> 0.
Proof.
  induction undone as [|e u IH]; intros al p a H; simpl in H; [left; exact H|].
  apply IH in H. destruct H as [H|(e' & He' & H)]; [|right; exists e'; simpl; tauto].
  destruct (N.eqb_spec (e_atx e) 0) as [E|E]; [left; exact H|].
  destruct H as [H|H].
  - inversion H; subst. right. exists e. simpl. tauto.
  - left. exact (in_removeK_sub _ _ _ H).
Qed.

Lemma inv_rollback s s' : Inv s -> pstep s LRollback = Some s' -> Inv s'.
Proof.
  intros I H. apply view_of_inv in I. unfold w_view in I. simpl in H. destruct (g_w s) as [w|]; [|discriminate].
  destruct I as [M0 F1 F2 F3 D1 D2 D3 T A2 [Wi Wm Wf Wf' Wa1 Wa2 Wa3 Wa4 Wc] Cov H1 H2 H3 R1 S1 S1' S2 A1 S3].
  inv_some H. apply inv_of_view. constructor; simpl; try assumption.
  - intros x Hx. apply in_free_restored in Hx. destruct Hx as [Hx|[Hx Hlt]]; [auto|]. apply Wa1 in Hx. lia.
  - eauto with sub. (* vF2: fewer entries are pending *)
  - intros x Hx Hp. apply in_pp_filter_sub in Hp. apply in_free_restored in Hx.
    destruct Hx as [Hx|[Hx _]]; [exact (D1 _ Hx Hp) | exact (Wa4 _ Hx Hp)].
  - intros x Hx Hc. apply in_free_restored in Hx. destruct Hx as [Hx|[Hx _]]; [exact (D2 _ Hx Hc) | exact (Wa3 _ Hx Hc)].
  - intros e He Hc. apply in_pend_of_others in He. destruct He as [He Hne]. destruct (D3 e He Hc) as [Et _]. destruct (Hne Et).
  - intros e He. apply in_pend_of_others in He. destruct He as [He Hne].
    destruct (T e He) as [Hle|[Et _]]; [left; exact Hle | destruct (Hne Et)].
  - eauto with sub. (* vA2: fewer entries are pending *)
  - apply writer_fresh.
  - intros x Hx. rewrite in_free_restored. destruct (Cov x Hx) as [X|[X|[X|X]]]; auto; [|left; right; split; [exact X | lia]].
    apply in_map_iff in X. destruct X as (e & <- & He). destruct (N.eq_dec (e_tx e) (w_id w)) as [E|E].
    + destruct (T e He) as [Hle|[_ Hf]]; [lia | auto].
    + right; left. apply in_map, in_pend_of_others. tauto.
  - intros r P x Hr HP Hx HF. apply in_free_restored in HF. destruct HF as [HF|[HF _]]; [exact (S1 _ _ _ Hr HP Hx HF) | exact (S1' _ _ _ Hr HP Hx HF)].
  - auto. (* vS1': nothing is allocated *)
  - eauto with sub. (* vS2: fewer entries are pending *)
  - intros p a Ha. apply filter_In in Ha. destruct Ha as [Ha Hv]. simpl in Hv. apply negb_true_iff, N.eqb_neq in Hv.
    left. apply in_fold_atx in Ha. destruct Ha as [Ha|(e & He & _ & Ea & _)].
    + destruct (A1 _ _ Ha) as [Hle|[Ea _]]; [exact Hle | destruct (Hv Ea)].
    + apply in_filter_sub in He. subst a. exact (A2 e He).
  - intros p a r P Ha Hr HP Hx. apply in_filter_sub, in_fold_atx in Ha. destruct Ha as [Ha|(e & He & Ep & Ea & _)]; [eauto|].
    apply in_filter_sub in He. subst p a. exact (proj1 (S2 e r P He Hr HP Hx)).
Qed.

Theorem inv_step s l s' : Inv s -> pstep s l = Some s' -> Inv s'.
Proof.
  intros I. destruct l; [apply inv_beginr | apply inv_endr | apply inv_beginw | apply inv_free | apply inv_alloc
                        | apply inv_commit | apply inv_rollback]; exact I.
Qed.

Theorem inv_run ls : forall s s', Inv s -> prun s ls = Some s' -> Inv s'.
Proof.
  induction ls as [|l ls IH]; intros s s' I H; simpl in H.
  - inversion H; subst; exact I.
  - destruct (pstep s l) as [s1|] eqn:E; [|discriminate]. eapply IH; [eapply inv_step; eauto | exact H].
Qed.

(** C06 / C02: what a commit writes is outside the newest committed version and outside every version an open
    reader views; and no page of such a version is reusable. *)
Theorem writes_only_invisible s : Inv s ->
  forall p, In p (commit_writes s) ->
    ~ In p (g_pages s) /\ (forall r P, In r (g_readers s) -> In (r, P) (g_hist s) -> ~ In p P).
Proof.
  intros I p Hp. unfold commit_writes in Hp. destruct (g_w s) as [w|] eqn:Ew; [|destruct Hp].
  destruct (iW s I w Ew) as (_ & _ & _ & Wa & _). split.
  - destruct (Wa _ Hp) as (_ & _ & Hn & _). exact Hn.
  - intros r P Hr HP Hx. exact (proj2 (iS1 s I _ _ _ Hr HP Hx) w Ew Hp).
Qed.

Theorem reader_pages_not_free s : Inv s ->
  forall r P x, In r (g_readers s) -> In (r, P) (g_hist s) -> In x P -> ~ In x (g_free s).
Proof. intros I r P x Hr HP Hx. exact (proj1 (iS1 s I _ _ _ Hr HP Hx)). Qed.

(** the meta page of the next commit goes to the slot that does not hold the newest committed meta *)
Theorem meta_slot_alternates s w : Inv s -> g_w s = Some w -> (w_id w) mod 2 <> (g_cur s) mod 2.
Proof.
  intros I Ew. destruct (iW s I w Ew) as (Wid & _). rewrite Wid.
  intros E. pose proof (N.mod_upper_bound (g_cur s) 2). pose proof (N.mod_upper_bound (g_cur s + 1) 2).
  pose proof (N.div_mod (g_cur s) 2). pose proof (N.div_mod (g_cur s + 1) 2). lia.
Qed.

Lemma pend_not_current s : Inv s -> g_w s = None -> forall x, In x (pend_pages s) -> ~ In x (g_pages s).
Proof.
  intros I Ew x Hp Hc. apply pend_pages_in in Hp. destruct Hp as (e & He & <-).
  destruct (iD3 s I e He Hc) as (w & Hw & _). congruence.
Qed.

(** C07: at rest every id in [2, mark) is exactly one of: free, pending, part of the newest version;
    and nothing outside [2, mark) is listed anywhere *)
Theorem partition_at_rest s : Inv s -> g_w s = None ->
  forall x, 2 <= x < g_mark s ->
    (In x (g_free s) /\ ~ In x (pend_pages s) /\ ~ In x (g_pages s)) \/
    (~ In x (g_free s) /\ In x (pend_pages s) /\ ~ In x (g_pages s)) \/
    (~ In x (g_free s) /\ ~ In x (pend_pages s) /\ In x (g_pages s)).
Proof.
  intros I Ew x Hx. pose proof (pend_not_current s I Ew x) as PC.
  pose proof (iD1 s I x) as D1. pose proof (iD2 s I x) as D2.
  destruct (iCov s I x Hx) as [A|[A|[A|(w & Hw & _)]]]; [| | |congruence].
  - left. auto.
  - right; left. split; [intros HF; exact (D1 HF A) | auto].
  - right; right. split; [intros HF; exact (D2 HF A) | split; [intros Hp; exact (PC Hp A) | exact A]].
Qed.

Theorem listed_below_mark s : Inv s -> forall x,
  In x (g_free s) \/ In x (pend_pages s) \/ In x (g_pages s) -> 2 <= x < g_mark s.
Proof.
  intros I x [H|[H|H]]; [exact (iF1 s I x H) | | exact (iF3 s I x H)].
  apply pend_pages_in in H. destruct H as (e & He & <-). exact (iF2 s I e He).
Qed.

(** C13: the free list rebuilt by scanning the file equals free + pending (what the sync mode persists) *)
Theorem scan_equals_persisted s : Inv s -> g_w s = None ->
  forall x, In x (scan_free s) <-> In x (g_free s) \/ In x (pend_pages s).
Proof.
  intros I Ew x. unfold scan_free. rewrite in_minus, run_in. pose proof (iM s I) as HM. split.
  - intros [Hr Hn]. destruct (iCov s I x) as [A|[A|[A|(w & Hw & _)]]]; [lia | auto | auto | destruct (Hn A) | congruence].
  - intros H. split.
    + assert (2 <= x < g_mark s) by (apply (listed_below_mark s I); destruct H; auto). lia.
    + destruct H as [H|H]; [exact (iD2 s I x H) | exact (pend_not_current s I Ew x H)].
Qed.

(** C10: with no reader open, the next writer may take back every pending page, and then nothing is withheld *)
Theorem reclaim_all_without_readers s : Inv s -> g_w s = None -> g_readers s = [] ->
  exists s', pstep s (LBeginW (pend_pages s)) = Some s' /\ g_pend s' = [] /\
             (forall x, In x (g_free s') <-> In x (g_free s) \/ In x (pend_pages s)).
Proof.
  intros _ Ew Er. simpl. rewrite Ew, Er.
  assert (G1 : forallb (fun e => negb (memN (e_pg e) (pend_pages s)) || releasable [] e) (g_pend s) = true).
  { apply forallb_forall. intros e _. apply orb_true_r. }
  assert (G2 : forallb (fun p => memN p (pend_pages s)) (pend_pages s) = true).
  { apply forallb_forall. intros p. apply memN_in. }
  rewrite G1, G2. simpl. eexists. split; [reflexivity|]. simpl. split.
  - apply filter_none. intros e He. apply negb_false_iff, memN_in, in_map, He.
  - intros x. apply in_app_iff.
Qed.

(** C10: what is pending while a writer is open was freed by that writer or by an earlier commit *)
Theorem pending_of_writer s w : Inv s -> g_w s = Some w ->
  forall e, In e (g_pend s) -> e_tx e <= g_cur s \/ In (e_pg e) (w_freed w).
Proof.
  intros I Ew e He. destruct (iT s I e He) as [H|(w0 & Hw0 & _ & Hf)]; [left; exact H|].
  rewrite Ew in Hw0. inversion Hw0; subst. right; exact Hf.
Qed.

(** the steps the tree layer takes inside a write transaction *)
Definition tree_label (l : label) : bool := match l with LFree _ | LAlloc _ => true | _ => false end.

(** what a rollback is to restore: everything a later transaction can see, the free list as a set *)
Record restores (a b : pg) : Prop := {
  rPages : g_pages b = g_pages a;
  rCur : g_cur b = g_cur a;
  rMark : g_mark b = g_mark a;
  rReaders : g_readers b = g_readers a;
  rPend : g_pend b = g_pend a;
  rFree : forall x, In x (g_free b) <-> In x (g_free a)
}.

Lemma restores_trans a b c : restores a b -> restores b c -> restores a c.
Proof.
  intros [P1 C1 M1 R1 D1 F1] [P2 C2 M2 R2 D2 F2].
  constructor; try congruence. intros x. rewrite F2. apply F1.
Qed.

(** rolling back after one more free or allocation gives what rolling back before it gives: the pending entry of
    a free carries the writer's id and is dropped; an allocated page below the committed mark returns to the
    free list, one taken at the mark is forgotten *)
Lemma rollback_tree_step s l s' r :
  Inv s -> tree_label l = true -> pstep s l = Some s' -> pstep s LRollback = Some r ->
  exists r', pstep s' LRollback = Some r' /\ restores r r'.
Proof.
  intros I TL H Hr. destruct l; try discriminate; simpl in H, Hr; destruct (g_w s) as [w|] eqn:Ew; try discriminate;
    inv_some Hr.
  - destruct (memN p (g_pages s) && negb (memN p (w_freed w))); [|discriminate]. inv_some H.
    simpl. eexists. split; [reflexivity|]. constructor; try reflexivity. simpl.
    rewrite filter_app. simpl. unfold e_tx at 2. simpl. rewrite N.eqb_refl. apply app_nil_r.
  - destruct (memN p (g_free s)) eqn:G.
    + apply memN_in in G. inv_some H. simpl. eexists. split; [reflexivity|]. constructor; try reflexivity.
      intros x. exact (free_restored_alloc _ _ _ _ x G (proj2 (iF1 s I p G))).
    + destruct (N.eqb_spec p (w_mark w)) as [->|]; [|discriminate]. inv_some H.
      simpl. eexists. split; [reflexivity|]. destruct (iW s I w Ew) as (_ & Wm & _).
      constructor; try reflexivity. simpl. rewrite (proj2 (N.ltb_ge _ _) Wm). reflexivity.
Qed.

Lemma rollback_tree_run ls : forall s s' r r',
  Inv s -> forallb tree_label ls = true -> prun s ls = Some s' ->
  pstep s LRollback = Some r -> pstep s' LRollback = Some r' -> restores r r'.
Proof.
  induction ls as [|l ls IH]; intros s s' r r' I TL H Hr Hr'; simpl in *.
  - inv_some H. rewrite Hr in Hr'. inv_some Hr'. constructor; reflexivity.
  - apply andb_true_iff in TL. destruct TL as [T1 T2]. destruct (pstep s l) as [s1|] eqn:E; [|discriminate].
    destruct (rollback_tree_step s l s1 r I T1 E Hr) as (r1 & Hr1 & X).
    exact (restores_trans _ _ _ X (IH s1 s' r1 r' (inv_step _ _ _ I E) T2 H Hr1 Hr')).
Qed.

(** C08: a failed (rolled back) transaction restores exactly the state its begin left *)
Theorem rollback_restores s0 w0 ls s1 s2 :
  Inv s0 -> g_w s0 = Some w0 -> w_freed w0 = [] -> w_alloc w0 = [] ->
  forallb tree_label ls = true -> prun s0 ls = Some s1 -> pstep s1 LRollback = Some s2 ->
  g_pages s2 = g_pages s0 /\ g_cur s2 = g_cur s0 /\ g_mark s2 = g_mark s0 /\ g_readers s2 = g_readers s0 /\
  g_w s2 = None /\ g_pend s2 = g_pend s0 /\ (forall x, In x (g_free s2) <-> In x (g_free s0)).
Proof.
  intros I Ew Hf Ha TL Hr Hb.
  assert (X0 : exists r0, pstep s0 LRollback = Some r0 /\ restores s0 r0).
  { simpl. rewrite Ew, Ha. eexists. split; [reflexivity|]. constructor; simpl; try reflexivity; [|rewrite app_nil_r; reflexivity].
    (* the writer has freed nothing: no pending entry is its own *)
    apply filter_id. intros e He. apply negb_true_iff, N.eqb_neq.
    destruct (iT s0 I e He) as [Hle|(w & Hw & _ & Hfw)].
    - destruct (iW s0 I w0 Ew) as (Wid & _). lia.
    - rewrite Ew in Hw. inv_some Hw. rewrite Hf in Hfw. destruct Hfw. }
  destruct X0 as (r0 & H0 & X0).
  destruct (restores_trans _ _ _ X0 (rollback_tree_run ls s0 s1 r0 s2 I TL Hr H0 Hb)) as [P C M R D F].
  assert (g_w s2 = None) by (simpl in Hb; destruct (g_w s1); [inv_some Hb; reflexivity | discriminate]).
  tauto.
Qed.

Theorem prun_frees : forall ps s w,
  g_w s = Some w -> NoDup ps -> (forall p, In p ps -> In p (g_pages s)) -> (forall p, In p ps -> ~ In p (w_freed w)) ->
  exists s' w', prun s (map LFree ps) = Some s' /\
    g_pages s' = g_pages s /\ g_free s' = g_free s /\ g_readers s' = g_readers s /\
    g_cur s' = g_cur s /\ g_mark s' = g_mark s /\ g_hist s' = g_hist s /\
    g_w s' = Some w' /\ w_freed w' = rev ps ++ w_freed w /\ w_alloc w' = w_alloc w /\ w_id w' = w_id w /\ w_mark w' = w_mark w.
Proof.
  induction ps as [|p ps IH]; intros s w Hw ND Hin Hnf.
  - exists s, w. cbn. auto 12.
  - inversion ND as [|? ? Hp ND']; subst. cbn [map prun pstep]. rewrite Hw.
    assert (G : memN p (g_pages s) && negb (memN p (w_freed w)) = true).
    { apply andb_true_iff. split; [apply memN_in; apply Hin; now left|]. apply negb_true_iff, memN_false. apply Hnf. now left. }
    rewrite G.
    match goal with |- context [prun ?s1 _] => set (s1' := s1) end.
    destruct (IH s1' {| w_id := w_id w; w_mark := w_mark w; w_freed := p :: w_freed w; w_alloc := w_alloc w |}) as (s' & w' & R & E).
    + reflexivity.
    + exact ND'.
    + intros q Hq. cbn. apply Hin. now right.
    + intros q Hq. cbn [w_freed]. intros [->|Hf]; [contradiction|]. apply (Hnf q); [now right | exact Hf].
    + exists s', w'. split; [exact R|]. cbn in E. destruct E as (E1 & E2 & E3 & E4 & E5 & E6 & E7 & E8 & E9 & E10 & E11).
      repeat split; auto. rewrite E8. cbn [rev]. now rewrite <- app_assoc.
Qed.
Print Assumptions prun_frees.
