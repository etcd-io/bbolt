(** Proofs about Conc.v: for every schedule the log reads serially; one writer at a time; no deadlock. *)
From Bbolt Require Import Base BaseProofs Conc.

Lemma nth_error_upd_same l t p : (t < length l)%nat -> nth_error (upd l t p) t = Some p.
Proof. revert t; induction l as [|x l IH]; intros [|t] H; simpl in *; try lia; [reflexivity|]. apply IH. lia. Qed.

Lemma nth_error_upd_other l t t' p : t <> t' -> nth_error (upd l t p) t' = nth_error l t'.
Proof.
  revert t t'; induction l as [|x l IH]; intros [|t] [|t'] H; simpl; try reflexivity; try congruence.
  apply IH. congruence.
Qed.

Lemma upd_length l t p : length (upd l t p) = length l.
Proof. revert t; induction l as [|x l IH]; intros [|t]; simpl; auto. Qed.

Lemma commits_app l r : commits (l ++ [r]) = commits l ++ (if is_commit r then [r] else []).
Proof. unfold commits. rewrite filter_app. simpl. destruct (is_commit r); reflexivity. Qed.

Lemma ver_of_mono id0 c0 l r id c : ver_of id0 c0 l id = Some c -> ver_of id0 c0 (l ++ [r]) id = Some c.
Proof.
  unfold ver_of. destruct (id =? id0); [auto|].
  destruct (find _ l) as [x|] eqn:F; [|discriminate]. intros H. now rewrite (find_app _ _ _ _ F).
Qed.

Lemma opt_is_ver_mono id0 c0 l r id c :
  opt_is (ver_of id0 c0 l id) c = true -> opt_is (ver_of id0 c0 (l ++ [r]) id) c = true.
Proof.
  unfold opt_is. destruct (ver_of id0 c0 l id) eqn:V; [|discriminate]. now rewrite (ver_of_mono _ _ _ _ _ _ V).
Qed.

Lemma rec_ok_mono id0 c0 l r' r : rec_ok id0 c0 l r = true -> rec_ok id0 c0 (l ++ [r']) r = true.
Proof.
  unfold rec_ok. intros H.
  destruct (t_kind r); [apply andb_true_iff in H; destruct H as [-> H]; simpl ..|]; apply opt_is_ver_mono, H.
Qed.

Lemma find_commit_none l id : (forall r, In r (commits l) -> t_id r <> id) ->
  find (fun r => is_commit r && (t_id r =? id)) l = None.
Proof.
  induction l as [|x l IH]; intros H; simpl; [reflexivity|].
  destruct (is_commit x) eqn:C; simpl.
  - destruct (t_id x =? id) eqn:E.
    + apply N.eqb_eq in E. exfalso. apply (H x); [|exact E]. unfold commits. simpl. rewrite C. now left.
    + apply IH. intros r Hr. apply H. unfold commits in *. simpl. rewrite C. now right.
  - apply IH. intros r Hr. apply H. unfold commits in *. simpl. now rewrite C.
Qed.

Section Inv.
  Variable mix : content -> N -> content.
  Variables (id0 : N) (c0 : content).

  Definition pc_ok (s : cstate) (t : nat) (p : pc) : Prop :=
    match p with
    | Idle _ => True
    | WLocked _ _ _ | WUnlock _ => lock s = Some t
    | WHold id rc _ _ _ | WDirty id rc _ _ _ => lock s = Some t /\ id = mid s + 1 /\ rc = mc s
    | RSnap id c _ => ver_of id0 c0 (log s) id = Some c
    end.

  Record CInv (s : cstate) : Prop := {
    cJ1 : map t_id (commits (log s)) = run_nat (id0 + 1) (length (commits (log s)));
    cJm : mid s = id0 + N.of_nat (length (commits (log s)));
    cJ2 : ver_of id0 c0 (log s) (mid s) = Some (mc s);
    cJ3 : forall r, In r (log s) -> rec_ok id0 c0 (log s) r = true;
    cJ4 : forall t p, nth_error (thr s) t = Some p -> pc_ok s t p;
    cJ5 : forall t, lock s = Some t -> exists p, nth_error (thr s) t = Some p /\ is_w p = true }.

  Record LogInv (m : N) (c : content) (l : list txrec) : Prop := {
    lJ1 : map t_id (commits l) = run_nat (id0 + 1) (length (commits l));
    lJm : m = id0 + N.of_nat (length (commits l));
    lJ2 : ver_of id0 c0 l m = Some c;
    lJ3 : forall r, In r l -> rec_ok id0 c0 l r = true }.

  Lemma log_inv s : CInv s -> LogInv (mid s) (mc s) (log s).
  Proof. intros I. constructor; apply I. Qed.

  Lemma inv_intro s : LogInv (mid s) (mc s) (log s) ->
    (forall t p, nth_error (thr s) t = Some p -> pc_ok s t p) ->
    (forall t, lock s = Some t -> exists p, nth_error (thr s) t = Some p /\ is_w p = true) -> CInv s.
  Proof. intros [] J4 J5. constructor; assumption. Qed.

  Lemma inv_init progs : CInv (cinit id0 c0 progs).
  Proof.
    constructor; simpl.
    - reflexivity.
    - lia.
    - unfold ver_of. now rewrite N.eqb_refl.
    - intros r [].
    - intros t p H. apply nth_error_In in H. apply in_map_iff in H. destruct H as (x & <- & _). exact I.
    - discriminate.
  Qed.

  Lemma log_inv_snoc m c l r : LogInv m c l -> is_commit r = false -> rec_ok id0 c0 (l ++ [r]) r = true ->
    LogInv m c (l ++ [r]).
  Proof.
    intros [J1 Jm J2 J3] C R. constructor; rewrite ?commits_app, ?C, ?app_nil_r; auto using ver_of_mono.
    intros x Hx. apply in_app_or in Hx. destruct Hx as [Hx|[<-|[]]]; [apply rec_ok_mono; auto | exact R].
  Qed.

  Lemma write_rec_ok m c l t k nc r' : LogInv m c l -> k <> KRead ->
    rec_ok id0 c0 (l ++ [r']) {| t_thread := t; t_id := m + 1; t_kind := k; t_read := c; t_written := nc |} = true.
  Proof.
    intros [J1 Jm J2 J3] K. unfold rec_ok. simpl. replace (m + 1 - 1) with m by lia.
    rewrite (ver_of_mono _ _ _ _ _ _ J2). simpl. rewrite N.eqb_refl, andb_true_r.
    destruct k; [apply N.ltb_lt; lia .. | congruence].
  Qed.

  Lemma log_inv_commit m c l t nc : LogInv m c l ->
    LogInv (m + 1) nc (l ++ [{| t_thread := t; t_id := m + 1; t_kind := KCommit; t_read := c; t_written := nc |}]).
  Proof.
    intros J. pose proof (write_rec_ok m c l t KCommit nc) as R. destruct J as [J1 Jm J2 J3].
    constructor; rewrite ?commits_app; simpl.
    - rewrite map_app, last_length, run_nat_snoc, <- J1. cbn [map t_id]. do 2 f_equal. lia.
    - rewrite app_length. simpl. lia.
    - unfold ver_of. destruct (m + 1 =? id0) eqn:E; [apply N.eqb_eq in E; lia|].
      rewrite find_app_none; [simpl; now rewrite N.eqb_refl|]. apply find_commit_none. intros r Hr.
      apply (in_map t_id) in Hr. rewrite J1 in Hr. apply run_nat_in in Hr. lia.
    - intros x Hx. apply in_app_or in Hx. destruct Hx as [Hx|[<-|[]]]; [apply rec_ok_mono; auto|].
      apply R; [constructor; assumption | discriminate].
  Qed.

  (** thread [t] moves to [p']: another thread's obligation is carried over, since if it holds the lock then the
      lock and the published meta stay as they are, and the log only grows *)
  Lemma pcs_ok_upd s t p' m c lk lg :
    let s' := {| mid := m; mc := c; lock := lk; thr := upd (thr s) t p'; log := lg |} in
    CInv s -> (t < length (thr s))%nat -> pc_ok s' t p' ->
    (forall t', t' <> t -> lock s = Some t' -> lk = lock s /\ m = mid s /\ c = mc s) ->
    (forall id x, ver_of id0 c0 (log s) id = Some x -> ver_of id0 c0 lg id = Some x) ->
    forall t' p, nth_error (thr s') t' = Some p -> pc_ok s' t' p.
  Proof.
    intros s' I Ht Hp' L V t' p H. simpl in H. destruct (Nat.eq_dec t t') as [<-|Hne].
    - rewrite nth_error_upd_same in H by exact Ht. injection H as <-. exact Hp'.
    - rewrite nth_error_upd_other in H by exact Hne. pose proof (cJ4 _ I _ _ H) as J.
      specialize (L t' (not_eq_sym Hne)).
      (* [Idle] asks nothing, and [V] keeps what [RSnap] asks; in the four other cases [t'] holds the lock *)
      destruct p; simpl in *; auto; try (destruct J as (J & -> & ->)); destruct (L J) as (-> & -> & ->); auto.
  Qed.

  Lemma holder_upd s t p p' : CInv s -> nth_error (thr s) t = Some p -> (is_w p = true -> is_w p' = true) ->
    forall t0, lock s = Some t0 -> exists q, nth_error (upd (thr s) t p') t0 = Some q /\ is_w q = true.
  Proof.
    intros I Hn W t0 L. destruct (cJ5 _ I _ L) as (q & Nq & Wq). destruct (Nat.eq_dec t t0) as [<-|Hne].
    - rewrite Hn in Nq. injection Nq as <-. exists p'.
      split; [apply nth_error_upd_same; eapply nth_error_lt; eauto | auto].
    - exists q. split; [now rewrite nth_error_upd_other | exact Wq].
  Qed.

  Lemma inv_step s t : CInv s -> CInv (cstep mix s t).
  Proof.
    intros I. unfold cstep. destruct (nth_error (thr s) t) as [p|] eqn:Hn; [|exact I].
    pose proof (cJ4 _ I _ _ Hn) as Hp. pose proof (nth_error_lt _ _ _ Hn) as Ht. pose proof (log_inv s I) as J.
    destruct p as [[|[tok e|] todo] | tok e todo | id rc tok e todo | id rc nc e todo | todo | id c todo]; simpl in Hp.
    - exact I.
    - (* rwlock.Lock(): blocked, or the lock was free *)
      destruct (lock s) eqn:L; [exact I|]. apply inv_intro; [exact J| |].
      + apply pcs_ok_upd; auto; [reflexivity | intros t' _ X; congruence].
      + intros t0 [= <-]. eexists. split; [apply nth_error_upd_same; exact Ht | reflexivity].
    - apply inv_intro; [exact J| |].
      + apply pcs_ok_upd; auto. exact (cJ2 _ I).
      + apply (holder_upd s t _ _ I Hn). discriminate.
    - apply inv_intro; [exact J| |].
      + apply pcs_ok_upd; simpl; auto.
      + apply (holder_upd s t _ _ I Hn). reflexivity.
    - apply inv_intro; [exact J| |].
      + apply pcs_ok_upd; auto.
      + apply (holder_upd s t _ _ I Hn). reflexivity.
    - (* commit or abandon: either way one record, and the thread goes on to unlock *)
      destruct Hp as (L & -> & ->).
      assert (T : forall m c r, LogInv m c (log s ++ [r]) ->
                CInv {| mid := m; mc := c; lock := lock s; thr := upd (thr s) t (WUnlock todo); log := log s ++ [r] |}).
      { intros m c r J'. apply inv_intro; [exact J'| |].
        - apply pcs_ok_upd; auto using ver_of_mono. intros t' Hne X. congruence.
        - apply (holder_upd s t _ _ I Hn). reflexivity. }
      destruct e; apply T; [apply log_inv_commit; exact J | ..];
        (apply log_inv_snoc; [exact J | reflexivity | apply write_rec_ok; [exact J | discriminate]]).
    - (* rwlock.Unlock() *)
      apply inv_intro; [exact J| |].
      + apply pcs_ok_upd; simpl; auto. intros t' Hne X. congruence.
      + discriminate.
    - apply inv_intro.
      + apply log_inv_snoc; [exact J | reflexivity|]. unfold rec_ok. simpl.
        rewrite (ver_of_mono _ _ _ _ _ _ Hp). simpl. apply N.eqb_refl.
      + apply pcs_ok_upd; simpl; auto using ver_of_mono.
      + apply (holder_upd s t _ _ I Hn). discriminate.
  Qed.

  Lemma inv_run sched : forall s, CInv s -> CInv (crun mix s sched).
  Proof. induction sched as [|t r IH]; intros s I; simpl; [exact I|]. apply IH. now apply inv_step. Qed.

  Theorem log_serial progs sched : serial_ok id0 c0 (log (crun mix (cinit id0 c0 progs) sched)) = true.
  Proof.
    pose proof (inv_run sched _ (inv_init progs)) as I. unfold serial_ok. apply andb_true_iff. split.
    - unfold ids_consecutive. rewrite (cJ1 _ I). rewrite sortN_run_nat. apply eqlN_refl.
    - apply forallb_forall. apply I.
  Qed.

  Theorem commit_ids_in_order progs sched : let s := crun mix (cinit id0 c0 progs) sched in
    map t_id (commits (log s)) = run_nat (id0 + 1) (length (commits (log s))) /\
    mid s = id0 + N.of_nat (length (commits (log s))) /\ ver_of id0 c0 (log s) (mid s) = Some (mc s).
  Proof. intros s. pose proof (inv_run sched _ (inv_init progs)) as I. split; [apply I|split; apply I]. Qed.

  Theorem one_writer progs sched t1 t2 p1 p2 : let s := crun mix (cinit id0 c0 progs) sched in
    nth_error (thr s) t1 = Some p1 -> nth_error (thr s) t2 = Some p2 -> is_w p1 = true -> is_w p2 = true -> t1 = t2.
  Proof.
    intros s H1 H2 W1 W2. pose proof (inv_run sched _ (inv_init progs)) as I.
    pose proof (cJ4 _ I _ _ H1) as A. pose proof (cJ4 _ I _ _ H2) as B.
    assert (lock s = Some t1) by (destruct p1; simpl in *; try discriminate; tauto).
    assert (lock s = Some t2) by (destruct p2; simpl in *; try discriminate; tauto).
    congruence.
  Qed.

  (** no deadlock: while some thread has work left, some thread's step changes the state *)
  Theorem never_stuck progs sched : let s := crun mix (cinit id0 c0 progs) sched in
    (exists t p, nth_error (thr s) t = Some p /\ unfinished p = true) -> exists t, cstep mix s t <> s.
  Proof.
    intros s (t & p & Hn & U). assert (I: CInv s) by apply (inv_run sched _ (inv_init progs)). clearbody s.
    (* a step that puts another pc at an existing thread changes the state *)
    assert (moved: forall s' t0 p0 q, nth_error (thr s) t0 = Some p0 -> p0 <> q -> thr s' = upd (thr s) t0 q -> s' <> s).
    { intros s' t0 p0 q H D E ->. pose proof (nth_error_upd_same (thr s) t0 q (nth_error_lt _ _ _ H)) as X.
      rewrite <- E, H in X. congruence. }
    destruct (lock s) as [h|] eqn:L.
    - (* the holder of the lock is never blocked: each of the four pcs inside the locked region moves on,
         [WDirty] whichever way its transaction ends *)
      destruct (cJ5 _ I _ L) as (ph & Nh & Wh). exists h. unfold cstep. rewrite Nh.
      destruct ph as [| | |? ? ? e ?| |]; try discriminate Wh; [| |destruct e|];
        (eapply moved; [exact Nh | | reflexivity]); discriminate.
    - (* the lock is free, so [t] is not inside the locked region (there it would hold the lock): it is idle with
         work left, or a reader, and moves *)
      exists t. unfold cstep. rewrite Hn, L. pose proof (cJ4 _ I _ _ Hn) as A.
      assert (NW : is_w p = false) by (destruct p; simpl in A; try reflexivity; try destruct A as (A & _); congruence).
      destruct p as [[|[tok e|] todo]| | | | |]; try discriminate; (eapply moved; [exact Hn | | reflexivity]); discriminate.
  Qed.
End Inv.
