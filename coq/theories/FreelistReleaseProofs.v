(** Proofs about the model of ReleasePendingPages (Freelist.v): safety, conservation, completeness. *)
From Bbolt Require Import Base BaseProofs Freelist FreelistProofs.
From Coq Require Import Sorting.Permutation Sorting.Sorted.

(** a reader that sees version [r] needs a pending page freed by [tid] and allocated by [a] iff [a <= r < tid] *)
Definition needs (r tid a : N) : bool := (a <=? r) && (r <? tid).
Definition released (p p' : list (N * txp)) (x : N * N * N) : Prop :=
  In x (pend_pairs p) /\ ~ In x (pend_pairs p').

Lemma needs_visible_to r tid a : needs r tid a = visible_to a tid r.
Proof. reflexivity. Qed.

Lemma needs_false_iff r tid a : needs r tid a = false <-> r < a \/ tid <= r.
Proof. unfold needs. now rewrite andb_false_iff, N.leb_gt, N.ltb_ge. Qed.

Definition unneeded (rs : list N) (x : N * N * N) : Prop :=
  forall r, In r rs -> needs r (fst (fst x)) (snd x) = false.

(** Every piece of ReleasePendingPages turns a pending map [p] into [p'] and hands out the page ids [freed]; it is
    a stage with condition [Q] when the pending triples split into those of [p'] and released ones, all of which
    satisfy [Q], whose pages are [freed].  Stages compose, and conservation, safety and the subset property are
    read off them. *)
Definition stage (Q : N * N * N -> Prop) (p p' : list (N * txp)) (freed : list N) : Prop :=
  exists R, Permutation (pend_pairs p) (pend_pairs p' ++ R) /\
            freed = map (fun t => snd (fst t)) R /\ Forall Q R.

Lemma stage_conserves Q p p' freed :
  stage Q p p' freed -> Permutation (pending_ids p) (pending_ids p' ++ freed).
Proof. intros (R & P & -> & _). rewrite <- !pend_pairs_ids, <- map_app. now apply Permutation_map. Qed.

Lemma stage_sub Q p p' freed x : stage Q p p' freed -> In x (pend_pairs p') -> In x (pend_pairs p).
Proof. intros (R & P & _) Hx. apply (Permutation_in _ (Permutation_sym P)), in_app_iff. now left. Qed.

Lemma stage_split Q p p' freed x : stage Q p p' freed -> In x (pend_pairs p) -> In x (pend_pairs p') \/ Q x.
Proof.
  intros (R & P & _ & F) Hx. apply (Permutation_in _ P), in_app_iff in Hx.
  rewrite Forall_forall in F. destruct Hx; auto.
Qed.

Lemma stage_freed Q p p' freed pg : stage Q p p' freed -> In pg freed ->
  exists tid a, In (tid, pg, a) (pend_pairs p) /\ Q (tid, pg, a).
Proof.
  intros (R & P & -> & F) Hpg. apply in_map_iff in Hpg. destruct Hpg as [[[tid pg'] a] [E Hx]].
  cbn in E. subst pg'. rewrite Forall_forall in F. exists tid, a. split; [|auto].
  apply (Permutation_in _ (Permutation_sym P)), in_app_iff. now right.
Qed.

Lemma stage_refl Q p : stage Q p p [].
Proof. exists []. rewrite app_nil_r. split; [reflexivity|]. split; [reflexivity | constructor]. Qed.

Lemma stage_weaken (Q Q' : N * N * N -> Prop) p p' freed :
  (forall x, Q x -> Q' x) -> stage Q p p' freed -> stage Q' p p' freed.
Proof. intros H (R & P & E & F). exists R. repeat split; [exact P | exact E | exact (Forall_impl _ H F)]. Qed.

Lemma stage_seq Q p p1 p2 f1 f2 : stage Q p p1 f1 -> stage Q p1 p2 f2 -> stage Q p p2 (f1 ++ f2).
Proof.
  intros (R1 & P1 & -> & F1) (R2 & P2 & -> & F2). exists (R1 ++ R2). split; [|split].
  - rewrite P1, P2, <- app_assoc. apply Permutation_app_head, Permutation_app_comm.
  - symmetry. apply map_app.
  - apply Forall_app. now split.
Qed.

Lemma stage_app Q a a' fa b b' fb : stage Q a a' fa -> stage Q b b' fb -> stage Q (a ++ b) (a' ++ b') (fa ++ fb).
Proof.
  intros (Ra & Pa & -> & Fa) (Rb & Pb & -> & Fb). exists (Ra ++ Rb). split; [|split].
  - rewrite !pend_pairs_app, Pa, Pb, <- !app_assoc. apply Permutation_app_head.
    rewrite !app_assoc. apply Permutation_app_tail, Permutation_app_comm.
  - symmetry. apply map_app.
  - apply Forall_app. now split.
Qed.

Lemma stage_flat_map Q (keep : N * txp -> list (N * txp)) (rel : N * txp -> list N) p :
  (forall e, stage Q [e] (keep e) (rel e)) -> stage Q p (flat_map keep p) (flat_map rel p).
Proof.
  intros H. induction p as [|e p IH]; cbn [flat_map]; [apply stage_refl|].
  exact (stage_app Q [e] _ _ p _ _ (H e) IH).
Qed.

(** releaseRange drops an entry it has emptied, and stamps what it keeps of one with the begin of the range *)
Definition rebuilt (tid b : N) (keep : list (N * N)) : list (N * txp) :=
  match keep with [] => [] | _ => [(tid, {| t_ids := keep; t_lrb := b |})] end.

Lemma pend_pairs_rebuilt tid b (keep : list (N * N)) :
  pend_pairs (rebuilt tid b keep)
  = map (fun pa => (tid, fst pa, snd pa)) keep.
Proof. destruct keep; [reflexivity|]. unfold rebuilt. now rewrite pend_pairs_cons, app_nil_r. Qed.

Lemma stage_entry (Q : N * N * N -> Prop) tid t b keep rel :
  Permutation (t_ids t) (keep ++ rel) -> (forall pa, In pa rel -> Q (tid, fst pa, snd pa)) ->
  stage Q [(tid, t)] (rebuilt tid b keep) (map fst rel).
Proof.
  intros P H. exists (map (fun pa => (tid, fst pa, snd pa)) rel). split; [|split].
  - rewrite pend_pairs_rebuilt, pend_pairs_cons, app_nil_r, <- map_app. now apply Permutation_map.
  - now rewrite map_map.
  - apply Forall_map, Forall_forall, H.
Qed.

Lemma release_stage p txid :
  stage (fun x => fst (fst x) <= txid) p (fst (release p txid)) (snd (release p txid)).
Proof.
  unfold release. cbn [fst snd]. rewrite filter_flat_map. apply stage_flat_map. intros [tid t]. cbn [fst snd].
  destruct (N.leb_spec tid txid) as [Hle|_]; cbn [negb]; [|apply stage_refl].
  apply (stage_entry _ tid t 0 [] (t_ids t)); [reflexivity | intros pa _; exact Hle].
Qed.

Lemma release_all p txid : (forall e, In e p -> fst e <= txid) -> fst (release p txid) = [].
Proof.
  intros H. apply filter_none. intros e He. apply negb_false_iff, N.leb_le, H, He.
Qed.

Definition rr_keep (b e : N) (ent : N * txp) : list (N * txp) :=
  if (fst ent <? b) || (e <? fst ent) then [ent]
  else if t_lrb (snd ent) =? b then [ent]
  else rebuilt (fst ent) b (filter (fun pa => negb (in_range b e (snd pa))) (t_ids (snd ent))).

Definition rr_rel (b e : N) (ent : N * txp) : list N :=
  if (fst ent <? b) || (e <? fst ent) then []
  else if t_lrb (snd ent) =? b then []
  else map fst (filter (fun pa => in_range b e (snd pa)) (t_ids (snd ent))).

Lemma release_range_step_eq b e acc ent :
  release_range_step b e acc ent = (fst acc ++ rr_keep b e ent, snd acc ++ rr_rel b e ent).
Proof.
  destruct ent as [tid x]. unfold release_range_step, rr_keep, rr_rel. cbn [fst snd].
  destruct ((tid <? b) || (e <? tid)); [now rewrite app_nil_r|].
  destruct (t_lrb x =? b); [now rewrite app_nil_r|].
  unfold rebuilt.
  destruct (filter (fun pa => negb (in_range b e (snd pa))) (t_ids x)); [now rewrite app_nil_r | reflexivity].
Qed.

Lemma release_range_fold b e p acc :
  fold_left (release_range_step b e) p acc
  = (fst acc ++ flat_map (rr_keep b e) p, snd acc ++ flat_map (rr_rel b e) p).
Proof.
  revert acc. induction p as [|ent p IH]; intros acc.
  - cbn. rewrite !app_nil_r. now destruct acc.
  - cbn [fold_left flat_map]. rewrite IH, release_range_step_eq. cbn [fst snd].
    now rewrite <- !app_assoc.
Qed.

Lemma release_range_eq p b e :
  release_range p b e
  = if e <? b then (p, []) else (flat_map (rr_keep b e) p, flat_map (rr_rel b e) p).
Proof. unfold release_range. destruct (e <? b); [reflexivity|]. now rewrite release_range_fold. Qed.

Definition both_in (b e : N) (x : N * N * N) : Prop :=
  (b <= fst (fst x) <= e) /\ (b <= snd x <= e).

Lemma in_range_spec b e x : in_range b e x = true <-> b <= x <= e.
Proof. unfold in_range. rewrite andb_true_iff, !N.leb_le. tauto. Qed.

Lemma release_range_stage p b e :
  stage (both_in b e) p (fst (release_range p b e)) (snd (release_range p b e)).
Proof.
  rewrite release_range_eq. destruct (e <? b); cbn [fst snd]; [apply stage_refl|].
  apply stage_flat_map. intros [tid t]. unfold rr_keep, rr_rel. cbn [fst snd].
  destruct (N.ltb_spec tid b); cbn [orb]; [apply stage_refl|].
  destruct (N.ltb_spec e tid); [apply stage_refl|]. destruct (t_lrb t =? b); [apply stage_refl|].
  apply stage_entry; [apply filter_partition_perm|]. intros pa Hpa. apply filter_In in Hpa.
  destruct Hpa as [_ Hr]. apply in_range_spec in Hr. unfold both_in. cbn [fst snd]. lia.
Qed.

Lemma release_range_nil b e : release_range [] b e = ([], []).
Proof. unfold release_range. now destruct (e <? b). Qed.

Definition gstep (g : bool) (acc : list (N * txp) * list N * N) (tid : N) : list (N * txp) * list N * N :=
  let '(pp, ff, mn) := acc in
  let '(pp', f') := if g && (tid =? 0) then (pp, []) else release_range pp mn (wsub1 tid) in
  (pp', ff ++ f', wadd1 tid).

Definition gstep_res (g : bool) (pp : list (N * txp)) (mn tid : N) : list (N * txp) * list N :=
  if g && (tid =? 0) then (pp, []) else release_range pp mn (wsub1 tid).

Lemma gstep_eq g pp ff mn tid :
  gstep g (pp, ff, mn) tid = (fst (gstep_res g pp mn tid), ff ++ snd (gstep_res g pp mn tid), wadd1 tid).
Proof. unfold gstep, gstep_res. now destruct (if g && (tid =? 0) then _ else _). Qed.

Definition min_reader (rs : list N) : N := match rs with [] => MAXU64 | r :: _ => r end.

Definition rp_first (rs : list N) (p : list (N * txp)) : list (N * txp) * list N :=
  if 0 <? min_reader rs then release p (min_reader rs - 1) else (p, []).

Definition rp_loop (g : bool) (rs : list N) (p : list (N * txp)) : list (N * txp) * list N * N :=
  fold_left (gstep g) rs (fst (rp_first rs p), snd (rp_first rs p), min_reader rs).

Lemma release_pending_gen_eq g rs p :
  release_pending_gen g rs p =
  (fst (release_range (fst (fst (rp_loop g rs p))) (snd (rp_loop g rs p)) MAXU64),
   snd (fst (rp_loop g rs p)) ++ snd (release_range (fst (fst (rp_loop g rs p))) (snd (rp_loop g rs p)) MAXU64)).
Proof.
  unfold release_pending_gen, rp_loop, rp_first. fold (min_reader rs).
  destruct (if 0 <? min_reader rs then _ else _) as [p1 f1]. cbn [fst snd].
  change (fun (acc : list (N * txp) * list N * N) tid =>
       let '(pp, ff, mn) := acc in
       let '(pp', f') := if g && (tid =? 0) then (pp, []) else release_range pp mn (wsub1 tid) in
       (pp', ff ++ f', wadd1 tid)) with (gstep g).
  destruct (fold_left (gstep g) rs (p1, f1, min_reader rs)) as [[p2 f2] m2]. cbn [fst snd].
  now destruct (release_range p2 m2 MAXU64).
Qed.

Lemma rp_first_stage rs p :
  stage (fun x => fst (fst x) < min_reader rs) p (fst (rp_first rs p)) (snd (rp_first rs p)).
Proof.
  unfold rp_first. destruct (N.ltb_spec 0 (min_reader rs)); [|apply stage_refl].
  eapply stage_weaken; [|apply release_stage]. cbv beta. intros x Hx. lia.
Qed.

Lemma gstep_res_stage g pp mn t :
  stage (fun x => g && (t =? 0) = false /\ both_in mn (wsub1 t) x)
        pp (fst (gstep_res g pp mn t)) (snd (gstep_res g pp mn t)).
Proof.
  unfold gstep_res. destruct (g && (t =? 0)); [apply stage_refl|].
  eapply stage_weaken; [|apply release_range_stage]. now split.
Qed.

(** The loop over the reader ids, for an invariant [J] of the readers still to come and the begin
    of the next range: if every range released on the way lies within [Q], the loop is a stage with
    condition [Q]. *)
Lemma loop_stage g (Q : N * N * N -> Prop) (J : list N -> N -> Prop) :
  (forall t rest mn, J (t :: rest) mn ->
     J rest (wadd1 t) /\ forall x, g && (t =? 0) = false -> both_in mn (wsub1 t) x -> Q x) ->
  forall rest pp ff mn, J rest mn ->
  exists f, J [] (snd (fold_left (gstep g) rest (pp, ff, mn))) /\
            snd (fst (fold_left (gstep g) rest (pp, ff, mn))) = ff ++ f /\
            stage Q pp (fst (fst (fold_left (gstep g) rest (pp, ff, mn)))) f.
Proof.
  intros Hstep. induction rest as [|t rest IH]; intros pp ff mn HJ; cbn [fold_left].
  - exists []. cbn [fst snd]. rewrite app_nil_r. repeat split; [exact HJ | apply stage_refl].
  - rewrite gstep_eq. destruct (Hstep t rest mn HJ) as [HJ' HQ].
    destruct (IH (fst (gstep_res g pp mn t)) (ff ++ snd (gstep_res g pp mn t)) (wadd1 t) HJ')
      as (f & H1 & H2 & H3).
    exists (snd (gstep_res g pp mn t) ++ f). split; [exact H1|]. split; [now rewrite H2, app_assoc|].
    eapply stage_seq; [|exact H3]. eapply stage_weaken; [|apply gstep_res_stage].
    intros x [H4 H5]. now apply HQ.
Qed.

Lemma release_pending_gen_stages g (Q : N * N * N -> Prop) (J : list N -> N -> Prop) rs p :
  (forall x, fst (fst x) < min_reader rs -> Q x) ->
  (forall t rest mn, J (t :: rest) mn ->
     J rest (wadd1 t) /\ forall x, g && (t =? 0) = false -> both_in mn (wsub1 t) x -> Q x) ->
  J rs (min_reader rs) ->
  (forall m x, J [] m -> both_in m MAXU64 x -> Q x) ->
  stage Q p (fst (release_pending_gen g rs p)) (snd (release_pending_gen g rs p)).
Proof.
  intros Hfirst Hstep HJ Hlast. rewrite release_pending_gen_eq. cbn [fst snd]. unfold rp_loop.
  destruct (loop_stage g Q J Hstep rs (fst (rp_first rs p)) (snd (rp_first rs p)) (min_reader rs) HJ)
    as (f & HJ' & -> & H2).
  rewrite <- app_assoc. eapply stage_seq; [exact (stage_weaken _ _ _ _ _ Hfirst (rp_first_stage rs p))|].
  eapply stage_seq; [exact H2|]. eapply stage_weaken; [|apply release_range_stage].
  intros x. now apply Hlast.
Qed.

Theorem release_pending_gen_stage_any g rs p p' freed :
  release_pending_gen g rs p = (p', freed) -> stage (fun _ => True) p p' freed.
Proof.
  intros H. pose proof (release_pending_gen_stages g (fun _ => True) (fun _ _ => True) rs p) as S.
  rewrite H in S. apply S; auto.
Qed.

Theorem release_pending_gen_conserves rs p p' freed :
  release_pending_gen true rs p = (p', freed) ->
  Permutation (pending_ids p) (pending_ids p' ++ freed).
Proof. intros H. exact (stage_conserves _ _ _ _ (release_pending_gen_stage_any _ _ _ _ _ H)). Qed.

Lemma min_reader_le rs : StronglySorted N.le rs -> forall r, In r rs -> min_reader rs <= r.
Proof.
  intros Hs r Hr. destruct rs as [|t rs]; [destruct Hr|]. cbn [min_reader].
  inversion Hs as [|? ? _ Hall]; subst. rewrite Forall_forall in Hall.
  destruct Hr as [<-|Hr]; [lia | now apply Hall].
Qed.

(** With the guard and sorted reader ids below MAXU64, every released triple is needed by no reader.
    The ranges are the gaps between consecutive reader ids: when the loop has [rest] still to visit
    and [mn] is the begin of the next range, every reader is below [mn] or in [rest], so a triple
    whose two transaction ids both lie in [mn, t-1] for the next reader [t] is visible to none.
    Only the reader ids need to be < MAXU64 (a reader id MAXU64 would make [wadd1] wrap to 0). *)
Theorem release_pending_gen_stage rs p p' freed :
  Sorted N.le rs -> (forall r, In r rs -> r < MAXU64) ->
  release_pending_gen true rs p = (p', freed) -> stage (unneeded rs) p p' freed.
Proof.
  intros Hsorted Hmax H.
  assert (Hs : StronglySorted N.le rs) by (apply Sorted_StronglySorted; [exact N.le_trans | exact Hsorted]).
  pose proof (release_pending_gen_stages true (unneeded rs)
    (fun rest mn => StronglySorted N.le rest /\ (forall r, In r rest -> r < MAXU64 /\ mn <= r + 1) /\
                    forall r, In r rs -> r < mn \/ In r rest) rs p) as S.
  rewrite H in S. apply S; clear S H.
  - intros x Hx r Hr. apply needs_false_iff. right. pose proof (min_reader_le rs Hs r Hr). lia.
  - intros t rest mn (Hsr & Hb & Hcov). inversion Hsr as [|? ? Hsr' Hall]; subst.
    rewrite Forall_forall in Hall. destruct (Hb t (or_introl eq_refl)) as [Ht Hmt].
    rewrite (wadd1_lt t Ht). split; [split; [exact Hsr'|split]|].
    + intros r Hr. split; [apply Hb; now right|]. specialize (Hall r Hr). lia.
    + intros r Hr. destruct (Hcov r Hr) as [?|[<-|?]]; [left; lia | left; lia | now right].
    + cbn [andb]. intros x Ht0 [[_ Hx] [Ha _]] r Hr. apply N.eqb_neq in Ht0.
      rewrite (wsub1_pos t Ht0) in Hx. apply needs_false_iff.
      destruct (Hcov r Hr) as [?|[<-|Hr']]; [left; lia | right; lia | right].
      specialize (Hall r Hr'). lia.
  - split; [exact Hs|]. split; [|now right].
    intros r Hr. split; [now apply Hmax|]. pose proof (min_reader_le rs Hs r Hr). lia.
  - intros m x (_ & _ & Hcov) [_ [Ha _]] r Hr. apply needs_false_iff. left.
    destruct (Hcov r Hr) as [?|[]]. lia.
Qed.

(** SAFETY (triple form): a pending page that is no longer pending afterwards is needed by no reader. *)
Theorem release_pending_gen_safe rs p p' freed :
  Sorted N.le rs -> (forall r, In r rs -> r < MAXU64) ->
  release_pending_gen true rs p = (p', freed) ->
  forall tid pg a, In (tid, pg, a) (pend_pairs p) -> ~ In (tid, pg, a) (pend_pairs p') ->
  forall r, In r rs -> needs r tid a = false.
Proof.
  intros Hs Hmax H tid pg a Hin Hnot.
  destruct (stage_split _ _ _ _ (tid, pg, a) (release_pending_gen_stage _ _ _ _ Hs Hmax H) Hin) as [H'|H'];
    [contradiction | exact H'].
Qed.

Corollary release_pending_gen_safe_released rs p p' freed :
  Sorted N.le rs -> (forall r, In r rs -> r < MAXU64) ->
  release_pending_gen true rs p = (p', freed) ->
  forall x, released p p' x -> forall r, In r rs -> needs r (fst (fst x)) (snd x) = false.
Proof.
  intros Hs Hmax H [[tid pg] a] [Hin Hnot].
  exact (release_pending_gen_safe rs p p' freed Hs Hmax H tid pg a Hin Hnot).
Qed.

(** SAFETY (freed-list form): every page id handed to the free list comes from a pending triple
    that no reader needs. *)
Theorem release_pending_gen_safe_freed rs p p' freed :
  Sorted N.le rs -> (forall r, In r rs -> r < MAXU64) ->
  release_pending_gen true rs p = (p', freed) ->
  forall pg, In pg freed ->
  exists tid a, In (tid, pg, a) (pend_pairs p) /\ forall r, In r rs -> needs r tid a = false.
Proof. intros Hs Hmax H pg. exact (stage_freed _ _ _ _ pg (release_pending_gen_stage _ _ _ _ Hs Hmax H)). Qed.

(** Every pending list of a transaction older than all readers is released entirely (whatever
    [t_lrb] says; guard or no guard). *)
Theorem release_pending_gen_below_min g rs p p' freed x :
  release_pending_gen g rs p = (p', freed) ->
  fst (fst x) < min_reader rs -> ~ In x (pend_pairs p').
Proof.
  rewrite release_pending_gen_eq. intros [= <- _] Hlt Hin. unfold rp_loop in Hin.
  apply (stage_sub _ _ _ _ _ (release_range_stage _ _ _)) in Hin.
  destruct (loop_stage g (fun _ => True) (fun _ _ => True) ltac:(auto)
              rs (fst (rp_first rs p)) (snd (rp_first rs p)) (min_reader rs) I) as (f & _ & _ & S).
  apply (stage_sub _ _ _ _ _ S) in Hin. revert Hin. unfold rp_first.
  destruct (N.ltb_spec 0 (min_reader rs)) as [Hpos|H0]; cbn [release fst]; [|lia].
  destruct x as [[tid pg] a]. rewrite in_pend_pairs. intros (e & He & <- & _).
  apply filter_In in He. destruct He as [_ He]. apply negb_true_iff, N.leb_gt in He. cbn [fst] in Hlt. lia.
Qed.

(** With no readers everything is released.  The only hypothesis needed is that transaction ids
    are < MAXU64: [release p (MAXU64-1)] then takes every entry, and [t_lrb] plays no role. *)
Theorem release_pending_gen_all_without_readers p p' freed :
  (forall e, In e p -> fst e < MAXU64) ->
  release_pending_gen true [] p = (p', freed) -> p' = [].
Proof.
  intros Hmax. rewrite release_pending_gen_eq. unfold rp_loop. cbn [fold_left fst snd].
  unfold rp_first. cbn [min_reader]. change (0 <? MAXU64) with true. cbv iota.
  rewrite release_all.
  - rewrite release_range_nil. cbn [fst snd]. intros H. now inversion H.
  - intros e He. specialize (Hmax e He). lia.
Qed.

Corollary release_pending_gen_all_without_readers_freed p p' freed :
  (forall e, In e p -> fst e < MAXU64) ->
  release_pending_gen true [] p = (p', freed) -> p' = [] /\ Permutation (pending_ids p) freed.
Proof.
  intros Hmax H. pose proof (release_pending_gen_all_without_readers p p' freed Hmax H) as ->.
  split; [reflexivity|]. now apply release_pending_gen_conserves in H.
Qed.

(** The hypothesis on the transaction ids is needed: an entry of transaction MAXU64 stays. *)
Example all_without_readers_needs_bound :
  release_pending_gen true [] [(MAXU64, {| t_ids := [(5, 0)]; t_lrb := 0 |})]
  = ([(MAXU64, {| t_ids := [(5, 0)]; t_lrb := MAXU64 |})], []).
Proof. vm_compute. reflexivity. Qed.

(** Remarks on what completeness does NOT hold in general (conservative behaviour, not unsafe):
    (1) a page freed by a transaction whose id EQUALS a reader id is kept although that reader does not
        need it (the ranges are the open gaps between reader ids);
    (2) in an arbitrary model state an entry whose [t_lrb] happens to equal the begin of its gap is
        skipped although nobody needs its pages. *)
Example conservative_tid_eq_reader :
  release_pending_gen true [5] [(5, {| t_ids := [(9, 5)]; t_lrb := 0 |})]
    = ([(5, {| t_ids := [(9, 5)]; t_lrb := 0 |})], [])
  /\ needs 5 5 5 = false.
Proof. vm_compute. split; reflexivity. Qed.

Example lrb_blocks_release :
  release_pending_gen true [3] [(6, {| t_ids := [(7, 5)]; t_lrb := 4 |})]
    = ([(6, {| t_ids := [(7, 5)]; t_lrb := 4 |})], [])
  /\ needs 3 6 5 = false
  /\ release_pending_gen true [3] [(6, {| t_ids := [(7, 5)]; t_lrb := 0 |})] = ([], [7]).
Proof. vm_compute. repeat split; reflexivity. Qed.

(** Every piece drops an entry or keeps it under its key, so the keys of the pending map stay distinct. *)
Lemma rr_keep_shape b e ent : rr_keep b e ent = [] \/ exists y, rr_keep b e ent = [(fst ent, y)].
Proof.
  unfold rr_keep, rebuilt.
  destruct ((fst ent <? b) || (e <? fst ent)); [right; exists (snd ent); now destruct ent|].
  destruct (t_lrb (snd ent) =? b); [right; exists (snd ent); now destruct ent|].
  destruct (filter _ _); [now left | right; eauto].
Qed.

Lemma release_range_keys_unique p b e : keys_unique p -> keys_unique (fst (release_range p b e)).
Proof.
  rewrite release_range_eq. destruct (e <? b); cbn [fst]; [tauto|]. apply keys_unique_flat_map, rr_keep_shape.
Qed.

Lemma loop_keys_unique g rest : forall pp ff mn,
  keys_unique pp -> keys_unique (fst (fst (fold_left (gstep g) rest (pp, ff, mn)))).
Proof.
  induction rest as [|t rest IH]; intros pp ff mn H; cbn [fold_left]; [exact H|].
  rewrite gstep_eq. apply IH. unfold gstep_res. destruct (g && (t =? 0)); cbn [fst]; [exact H|].
  now apply release_range_keys_unique.
Qed.

Theorem release_pending_gen_keys_unique g rs p p' freed :
  release_pending_gen g rs p = (p', freed) -> keys_unique p -> keys_unique p'.
Proof.
  rewrite release_pending_gen_eq. intros [= <- _] Hu.
  apply release_range_keys_unique, loop_keys_unique. unfold rp_first.
  destruct (0 <? min_reader rs); cbn [release fst]; [now apply keys_unique_filter | exact Hu].
Qed.

(** A pending page whose freeing and allocating transaction lie in the same gap between reader ids is
    released, provided the entry is not skipped by the lastReleaseBegin optimisation.  (Neither
    sortedness of the reader list nor a bound on the reader ids is needed for this direction.)
    The proof follows the entry [ent] through the pieces: each either keeps it or frees the page. *)

Lemma rp_first_keeps rs p ent : In ent p -> min_reader rs < fst ent -> In ent (fst (rp_first rs p)).
Proof.
  intros Hin Hlt. unfold rp_first. destruct (0 <? min_reader rs); [|exact Hin].
  apply filter_In. split; [exact Hin|]. apply negb_true_iff, N.leb_gt. lia.
Qed.

Lemma rp_first_frees rs p ent pg a :
  In ent p -> In (pg, a) (t_ids (snd ent)) -> fst ent < min_reader rs -> In pg (snd (rp_first rs p)).
Proof.
  intros Hin Hpa Hlt. unfold rp_first. destruct (N.ltb_spec 0 (min_reader rs)); [|lia].
  apply in_flat_map. exists ent. split; [exact Hin|].
  destruct (N.leb_spec (fst ent) (min_reader rs - 1)); [exact (in_map fst _ _ Hpa) | lia].
Qed.

Lemma release_range_keeps p b e ent :
  In ent p -> e < fst ent -> In ent (fst (release_range p b e)).
Proof.
  intros Hin Hlt. rewrite release_range_eq. destruct (e <? b); cbn [fst]; [exact Hin|].
  apply in_flat_map. exists ent. split; [exact Hin|]. unfold rr_keep.
  apply N.ltb_lt in Hlt. rewrite Hlt, orb_true_r. now left.
Qed.

Lemma release_range_frees p b e ent pg a :
  In ent p -> b <= fst ent <= e -> t_lrb (snd ent) <> b ->
  In (pg, a) (t_ids (snd ent)) -> b <= a <= e -> In pg (snd (release_range p b e)).
Proof.
  intros Hin Ht Hl Hpa Ha. rewrite release_range_eq.
  destruct (N.ltb_spec e b) as [Hlt|Hge]; [lia|]. cbn [snd].
  apply in_flat_map. exists ent. split; [exact Hin|]. unfold rr_rel.
  destruct (N.ltb_spec (fst ent) b); [lia|]. destruct (N.ltb_spec e (fst ent)); [lia|]. cbn [orb].
  destruct (N.eqb_spec (t_lrb (snd ent)) b); [contradiction|].
  apply (in_map fst _ (pg, a)), filter_In. split; [exact Hpa|]. now apply in_range_spec.
Qed.

Lemma gstep_res_keeps pp mn t ent : In ent pp -> t < fst ent -> In ent (fst (gstep_res true pp mn t)).
Proof.
  intros Hin Hlt. unfold gstep_res. cbn [andb]. destruct (N.eqb_spec t 0) as [E|E]; cbn [fst]; [exact Hin|].
  apply release_range_keeps; [exact Hin|]. rewrite (wsub1_pos t E). lia.
Qed.

Lemma gstep_res_frees pp mn t ent pg a :
  In ent pp -> In (pg, a) (t_ids (snd ent)) -> mn <= fst ent < t -> mn <= a < t -> t_lrb (snd ent) <> mn ->
  In pg (snd (gstep_res true pp mn t)).
Proof.
  intros Hin Hpa Ht Ha Hl. unfold gstep_res. cbn [andb]. destruct (N.eqb_spec t 0) as [E|E]; [lia|].
  rewrite (wsub1_pos t E). apply (release_range_frees pp mn (t - 1) ent pg a); [exact Hin | lia | exact Hl | exact Hpa | lia].
Qed.

(** Through the loop and the final range: the page is already handed out, or the entry is still
    there, above the begin [mn] of the next range, with [t_lrb] different from it. *)
Lemma loop_gap ent pg a : In (pg, a) (t_ids (snd ent)) -> fst ent < MAXU64 -> a <= MAXU64 ->
  forall rest,
  (forall r, In r rest -> (r < fst ent /\ r < a) \/ (fst ent < r /\ a < r)) ->
  (forall r, In r rest -> t_lrb (snd ent) <> r + 1) ->
  forall pp ff mn,
  In pg ff \/ (In ent pp /\ mn <= fst ent /\ mn <= a /\ t_lrb (snd ent) <> mn) ->
  let res := fold_left (gstep true) rest (pp, ff, mn) in
  In pg (snd (fst res) ++ snd (release_range (fst (fst res)) (snd res) MAXU64)).
Proof.
  intros Hpa Hmax Hamax. induction rest as [|t rest IH]; intros Hgap Hlrb pp ff mn K; cbn [fold_left].
  - cbn [fst snd]. apply in_app_iff. destruct K as [K|(Hin & Hm1 & Hm2 & Hl)]; [now left | right].
    apply (release_range_frees pp mn MAXU64 ent pg a); [exact Hin | lia | exact Hl | exact Hpa | lia].
  - rewrite gstep_eq. apply IH; [intros r Hr; apply Hgap; now right | intros r Hr; apply Hlrb; now right |].
    destruct K as [K|(Hin & Hm1 & Hm2 & Hl)]; [left; apply in_app_iff; now left|].
    destruct (Hgap t (or_introl eq_refl)) as [[Hb1 Hb2]|[Ha1 Ha2]].
    + (* reader below: the entry is untouched *)
      right. rewrite (wadd1_lt t) by lia. split; [now apply gstep_res_keeps|].
      split; [lia|]. split; [lia|]. apply Hlrb. now left.
    + (* first reader above: the page is released here *)
      left. apply in_app_iff. right.
      apply (gstep_res_frees pp mn t ent pg a); [exact Hin | exact Hpa | lia | lia | exact Hl].
Qed.

Theorem release_pending_gen_gap_complete rs p p' freed ent pg a :
  release_pending_gen true rs p = (p', freed) ->
  In ent p -> In (pg, a) (t_ids (snd ent)) -> fst ent < MAXU64 -> a <= MAXU64 ->
  (forall r, In r rs -> (r < fst ent /\ r < a) \/ (fst ent < r /\ a < r)) ->
  (forall r, In r rs -> t_lrb (snd ent) <> r + 1) ->
  In pg freed.
Proof.
  rewrite release_pending_gen_eq. unfold rp_loop. intros [= _ <-] Hin Hpa Hmax Hamax Hgap Hlrb.
  pose proof (rp_first_frees rs p ent pg a Hin Hpa) as Hbelow. pose proof (rp_first_keeps rs p ent Hin) as Hkeep.
  destruct rs as [|t rs]; cbn [fold_left min_reader] in *.
  - apply (loop_gap ent pg a Hpa Hmax Hamax []); [intros r [] | intros r [] | left; now apply Hbelow].
  - rewrite gstep_eq. apply (loop_gap ent pg a Hpa Hmax Hamax rs);
      [intros r Hr; apply Hgap; now right | intros r Hr; apply Hlrb; now right |].
    destruct (Hgap t (or_introl eq_refl)) as [[Hb1 Hb2]|[Ha1 Ha2]].
    + (* the first reader is below: its range, which begins at itself, is empty *)
      right. rewrite (wadd1_lt t) by lia. split; [apply gstep_res_keeps; [now apply Hkeep | exact Hb1]|].
      split; [lia|]. split; [lia|]. apply Hlrb. now left.
    + left. apply in_app_iff. left. now apply Hbelow.
Qed.

(** In terms of [needs]: if the allocating transaction is not later than the freeing one (as in every
    real state; 0 = unknown included), no reader needs the page, no reader id equals the freeing
    transaction id (the conservative case, see [conservative_tid_eq_reader]) and the entry is not
    skipped because of [t_lrb], then the page is released. *)
Corollary release_pending_gen_complete rs p p' freed ent pg a :
  release_pending_gen true rs p = (p', freed) ->
  In ent p -> In (pg, a) (t_ids (snd ent)) -> fst ent < MAXU64 -> a <= fst ent ->
  (forall r, In r rs -> needs r (fst ent) a = false /\ r <> fst ent) ->
  (forall r, In r rs -> t_lrb (snd ent) <> r + 1) ->
  In pg freed.
Proof.
  intros H Hin Hpa Hmax Hle Hn Hlrb.
  apply (release_pending_gen_gap_complete rs p p' freed ent pg a H Hin Hpa Hmax); [lia | | exact Hlrb].
  intros r Hr. destruct (Hn r Hr) as [Hnd Hne]. apply needs_false_iff in Hnd. lia.
Qed.

Theorem release_pending_pages_spec s :
  let s' := release_pending_pages s in
  exists freed,
    release_pending_gen true (sortN (readers s)) (pending s) = (pending s', freed)
    /\ readers s' = sortN (readers s)
    /\ allocs s' = allocs s
    /\ Permutation (free s') (free s ++ freed)
    /\ Permutation (cache s') (cache s).
Proof.
  unfold release_pending_pages.
  destruct (release_pending_gen true (sortN (readers s)) (pending s)) as [p' freed] eqn:E.
  cbn [free pending allocs readers]. exists freed.
  assert (Hfree : Permutation (mergeN (free s) (sortN freed)) (free s ++ freed)).
  { rewrite <- mergeN_perm. apply Permutation_app_head. symmetry. apply sortN_perm. }
  repeat split; [exact Hfree|]. unfold cache. cbn [free pending].
  rewrite Hfree, (release_pending_gen_conserves _ _ _ _ E), <- !app_assoc.
  apply Permutation_app_head, Permutation_app_comm.
Qed.

Theorem release_pending_pages_free_sorted s :
  Sorted (fun x y => is_true (x <=? y)) (free s) ->
  Sorted (fun x y => is_true (x <=? y)) (free (release_pending_pages s)).
Proof.
  intros H. unfold release_pending_pages.
  destruct (release_pending_gen true (sortN (readers s)) (pending s)) as [p' freed].
  cbn [free]. apply Sorted_LocallySorted_iff. apply NSort.Sorted_merge.
  - now apply Sorted_LocallySorted_iff.
  - apply Sorted_LocallySorted_iff, sortN_sorted.
Qed.

(** A page that ReleasePendingPages adds to the free list was pending and is needed by no reader. *)
Corollary release_pending_pages_new_free s pg :
  (forall r, In r (readers s) -> r < MAXU64) ->
  In pg (free (release_pending_pages s)) ->
  In pg (free s) \/
  exists tid a, In (tid, pg, a) (pend_pairs (pending s))
                /\ forall r, In r (readers s) -> needs r tid a = false.
Proof.
  intros Hmax Hin.
  destruct (release_pending_pages_spec s) as (freed & E & _ & _ & Hf & _).
  apply (Permutation_in _ Hf), in_app_iff in Hin. destruct Hin as [Hin|Hin]; [now left|]. right.
  destruct (release_pending_gen_safe_freed _ _ _ _ (sortN_sorted_le _)
              (fun r Hr => Hmax r (proj1 (sortN_in r _) Hr)) E pg Hin) as (tid & a & H1 & H2).
  exists tid, a. split; [exact H1|]. intros r Hr. apply H2. now apply sortN_in.
Qed.

(** * The defect of the pinned code (D10): without the guard for reader id 0, [uint64(0-1)] makes the
    range [0, MAXU64], and a page that reader 0 needs is released.  Entries with [t_lrb = 0] (the
    initial value) are skipped by the lastReleaseBegin optimisation, which is why it takes a second
    round to show. *)
Example pinned_release_unsafe_direct :
  let p := [(3, {| t_ids := [(5, 0)]; t_lrb := 2 |})] in
  In (3, 5, 0) (pend_pairs p)
  /\ needs 0 3 0 = true
  /\ release_pending_gen false [0] p = ([], [5])
  /\ release_pending_gen true [0] p = ([(3, {| t_ids := [(5, 0)]; t_lrb := 1 |})], []).
Proof. cbv zeta. split; [left; reflexivity|]. vm_compute. repeat split; reflexivity. Qed.

(** The same from a state with initial [t_lrb = 0]: a first ReleasePendingPages with reader 1 releases
    page 6 (allocated by 2, freed by 3) and sets t_lrb := 2; then reader 0 is the only reader. *)
Example pinned_release_unsafe_two_rounds :
  let p0 := [(3, {| t_ids := [(5, 0); (6, 2)]; t_lrb := 0 |})] in
  let p1 := [(3, {| t_ids := [(5, 0)]; t_lrb := 2 |})] in
  release_pending_gen false [1] p0 = (p1, [6])
  /\ release_pending_gen false [0] p1 = ([], [5])
  /\ needs 0 3 0 = true
  /\ release_pending_gen true [1] p0 = (p1, [6])
  /\ release_pending_gen true [0] p1 = ([(3, {| t_ids := [(5, 0)]; t_lrb := 1 |})], []).
Proof. vm_compute. repeat split; reflexivity. Qed.

(** Hence the safety theorem is false for [release_pending_gen false]. *)
Theorem release_pending_gen_unguarded_unsafe :
  ~ (forall rs p p' freed,
       Sorted N.le rs -> (forall r, In r rs -> r < MAXU64) ->
       release_pending_gen false rs p = (p', freed) ->
       forall tid pg a, In (tid, pg, a) (pend_pairs p) -> ~ In (tid, pg, a) (pend_pairs p') ->
       forall r, In r rs -> needs r tid a = false).
Proof.
  intros H.
  specialize (H [0] [(3, {| t_ids := [(5, 0)]; t_lrb := 2 |})] [] [5]).
  assert (Hs : Sorted N.le [0]) by (repeat constructor).
  assert (Hm : forall r, In r [0] -> r < MAXU64) by (intros r [<-|[]]; reflexivity).
  specialize (H Hs Hm eq_refl 3 5 0 (or_introl eq_refl) (fun f => f) 0 (or_introl eq_refl)).
  discriminate H.
Qed.

(** From a state in which nothing has been released yet ([t_lrb = 0] everywhere) nothing shows: *)
Example pinned_release_hidden_by_lrb :
  let p := [(1, {| t_ids := [(5, 0)]; t_lrb := 0 |}); (2, {| t_ids := [(6, 0)]; t_lrb := 0 |})] in
  release_pending_gen false [0] p = release_pending_gen true [0] p.
Proof. vm_compute. reflexivity. Qed.
