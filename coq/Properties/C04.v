(** C04 - buckets, keys and sequences behave as a nested ordered map.
    The reference model is Spec.v (the harness compares every API result of the implementation with it).
    The theorems below state that the reference really is a map with the promised error behaviour. *)
From Bbolt Require Import Base Consts Spec SpecProofs SpecBucketProofs.
From Bbolt Require Node NodeProofs Tree TreeProofs TreeNestedProofs.

(** Argument and type errors (and every other error) leave the state unchanged. *)
Theorem C04_errors_change_nothing : forall w o root e out root',
  exec w o root = (e, out, root') -> e <> ENone -> root' = root.
Proof. exact exec_error_unchanged. Qed.
Print Assumptions C04_errors_change_nothing.

(** No call made through a read-only transaction changes anything. *)
Theorem C04_read_tx_changes_nothing : forall o root e out root',
  exec false o root = (e, out, root') -> root' = root.
Proof. exact exec_readonly_tx_unchanged. Qed.
Print Assumptions C04_read_tx_changes_nothing.

(** A write transaction reads its own uncommitted writes, at any nesting depth. *)
Theorem C04_read_your_writes : forall p k v root root' out,
  exec true (OPut p k v) root = (ENone, out, root') ->
  exec true (OGet p k) root' = (ENone, VBytes (Some v), root').
Proof. exact put_then_get. Qed.
Print Assumptions C04_read_your_writes.

Theorem C04_read_your_deletes : forall p k root root' out,
  (forall b, resolve p root = Some b -> keys_sorted (snd b) = true) ->
  exec true (ODelete p k) root = (ENone, out, root') ->
  exec true (OGet p k) root' = (ENone, VBytes None, root').
Proof. exact delete_then_get. Qed.
Print Assumptions C04_read_your_deletes.

(** Each bucket is an ordered map: insert/remove keep the byte order and touch only their key. *)
Theorem C04_insert_keeps_order : forall k e l, keys_sorted l = true -> keys_sorted (insert k e l) = true.
Proof. exact insert_sorted. Qed.
Print Assumptions C04_insert_keeps_order.

Theorem C04_remove_keeps_order : forall k l, keys_sorted l = true -> keys_sorted (remove k l) = true.
Proof. exact remove_sorted. Qed.
Print Assumptions C04_remove_keeps_order.

Theorem C04_insert_frame : forall k k2 e l, keys_sorted l = true -> bcmp k2 k <> Eq ->
  lookup k2 (insert k e l) = lookup k2 l.
Proof. exact lookup_insert_other. Qed.
Print Assumptions C04_insert_frame.

Theorem C04_remove_frame : forall k k2 l, keys_sorted l = true -> bcmp k2 k <> Eq ->
  lookup k2 (remove k l) = lookup k2 l.
Proof. exact lookup_remove_other. Qed.
Print Assumptions C04_remove_frame.

(** non-vacuity: a concrete nested state on which the hypotheses hold and the calls succeed *)
Example C04_nonvacuous :
  let root := (0, [([98], Sub 3 [([107], Val [1]); ([108], Sub 0 [])])]) : bucket in
  keys_sorted (snd root) = true /\
  fst (fst (exec true (OPut [[98]; [108]] [120] [7; 7]) root)) = ENone /\
  fst (fst (exec true (OPut [[98]] [108] [7]) root)) = EIncompatibleValue.
Proof. vm_compute. repeat split. Qed.

(** * Bucket-level laws of the reference *)

(** every state reachable from the empty database by any sequence of API calls (any mix of successes and errors, in
    write or read transactions) is well-formed: keys strictly ascending at every nesting level *)
Theorem C04_reachable_states_are_ordered_maps : forall w os, wf_bucket (exec_all w os (0, [])).
Proof. exact exec_all_wf_from_empty. Qed.
Print Assumptions C04_reachable_states_are_ordered_maps.

Theorem C04_every_call_keeps_order : forall w o root e out root',
  wf_bucket root -> exec w o root = (e, out, root') -> wf_bucket root'.
Proof. exact exec_wf. Qed.
Print Assumptions C04_every_call_keeps_order.

(** a created bucket is empty with sequence 0 *)
Theorem C04_created_bucket_is_empty : forall p n root root', create_bucket p n root = (ENone, root') ->
  resolve (p ++ [n]) root' = Some (0, []).
Proof. exact create_bucket_new. Qed.
Print Assumptions C04_created_bucket_is_empty.

(** deleting a bucket removes it and everything below it *)
Theorem C04_deleted_bucket_subtree_gone : forall p n root root' r, sorted_at p root ->
  delete_bucket p n root = (ENone, root') -> resolve (p ++ n :: r) root' = None.
Proof. exact delete_bucket_subtree_gone. Qed.
Print Assumptions C04_deleted_bucket_subtree_gone.

(** a moved bucket arrives with its whole subtree, and leaves its old place *)
Theorem C04_moved_bucket_arrives_intact : forall src n dst root root' r, move_bucket src n dst root = (ENone, root') ->
  resolve (dst ++ n :: r) root' = resolve (src ++ n :: r) root.
Proof. exact move_bucket_subtree. Qed.
Print Assumptions C04_moved_bucket_arrives_intact.

Theorem C04_moved_bucket_leaves_source : forall src n dst root root', sorted_at src root ->
  move_bucket src n dst root = (ENone, root') -> resolve (src ++ [n]) root' = None.
Proof. exact move_bucket_src_gone. Qed.
Print Assumptions C04_moved_bucket_leaves_source.

(** the reference refuses a move into the moved bucket's own subtree and changes nothing (the code does not: known finding D4) *)
Theorem C04_move_into_own_subtree_refused : forall src n dst root, extends (src ++ [n]) dst ->
  fst (move_bucket src n dst root) <> ENone /\ snd (move_bucket src n dst root) = root.
Proof. exact move_bucket_into_itself. Qed.
Print Assumptions C04_move_into_own_subtree_refused.

(** sequences: NextSequence returns old + 1 (mod 2^64), stores it, and touches nothing else *)
Theorem C04_next_sequence : forall p root v root', next_sequence p root = (ENone, v, root') ->
  exists b, resolve p root = Some b /\ v = (fst b + 1) mod M64 /\
            sequence p root' = (ENone, v) /\ resolve p root' = Some (v, snd b).
Proof. exact next_sequence_spec. Qed.
Print Assumptions C04_next_sequence.

(** a put (a delete) changes exactly one key of one bucket: every other (bucket, key) reads as before *)
Theorem C04_put_frame : forall p k v vl root root' q k2, put p k v vl root = (ENone, root') ->
  (q <> p \/ k2 <> k) -> get q k2 root' = get q k2 root.
Proof. exact put_get_frame. Qed.
Print Assumptions C04_put_frame.

Theorem C04_delete_frame : forall p k root root' q k2, sorted_at p root -> delete p k root = (ENone, root') ->
  (q <> p \/ k2 <> k) -> get q k2 root' = get q k2 root.
Proof. exact delete_get_frame. Qed.
Print Assumptions C04_delete_frame.

(** the sortedness side condition above holds in every reachable state *)
Theorem C04_ordered_everywhere : forall root p, wf_bucket root -> sorted_at p root.
Proof. exact wf_sorted_at. Qed.
Print Assumptions C04_ordered_everywhere.

Module NodeLayer.
Import Node NodeProofs.

(** ---- the B+tree node layer (Node.v: line-for-line model of node.go, compared call by call with the real node) ---- *)

(** Go's sort.Search bisection finds, on a sorted node, the number of keys below the sought one (the insertion point) *)
Theorem C04_node_search_is_insertion_point : forall l k, keys_sorted (keys_of l) = true ->
  search (length l) (key_ge l k) = length (filter (fun i => blt (i_key i) k) l).
Proof. exact search_sorted. Qed.
Print Assumptions C04_node_search_is_insertion_point.

(** node.put on a sorted node is insert-or-replace of a sorted map ... *)
Theorem C04_node_put_is_insert : forall mark n k v pg fl,
  keys_sorted (keys_of (n_inodes n)) = true -> pg < mark -> len k <> 0 ->
  put mark n k k v pg fl =
  Ok {| n_leaf := n_leaf n; n_unbal := n_unbal n;
        n_inodes := ins {| i_flags := fl; i_key := k; i_val := v; i_pgid := pg |} (n_inodes n) |}.
Proof. exact put_is_insert. Qed.
Print Assumptions C04_node_put_is_insert.

(** ... which keeps the node sorted, makes the key readable and leaves every other key alone *)
Theorem C04_node_insert_laws : forall ni l,
  (keys_sorted (keys_of l) = true -> keys_sorted (keys_of (ins ni l)) = true) /\
  ilookup (i_key ni) (ins ni l) = Some ni /\
  (forall k', k' <> i_key ni -> ilookup k' (ins ni l) = ilookup k' l).
Proof. intros ni l. split; [exact (ins_sorted ni l) | split; [exact (ins_lookup_same ni l) | exact (ins_lookup_other ni l)]]. Qed.
Print Assumptions C04_node_insert_laws.

(** node.del on a sorted node removes exactly that key, keeps the node sorted, and marks it for rebalancing iff the key was there *)
Theorem C04_node_del_is_remove : forall n k, keys_sorted (keys_of (n_inodes n)) = true ->
  n_inodes (del n k) = rem k (n_inodes n) /\
  keys_sorted (keys_of (rem k (n_inodes n))) = true /\
  ilookup k (rem k (n_inodes n)) = None /\
  (forall k', k' <> k -> ilookup k' (rem k (n_inodes n)) = ilookup k' (n_inodes n)) /\
  n_unbal (del n k) = n_unbal n || existsb (fun i => beq (i_key i) k) (n_inodes n).
Proof.
  intros n k H. split; [exact (del_is_remove n k H) | split; [exact (rem_sorted k _ H) | split; [exact (rem_lookup_same k _ H) |
  split; [exact (fun k' => rem_lookup_other k k' _ H) | exact (del_unbalanced_iff n k H)]]]].
Qed.
Print Assumptions C04_node_del_is_remove.

(** node.split, for every node, page size and fill percentage: it terminates, loses and reorders nothing, produces no empty piece,
    and every piece but the last has at least MinKeysPerPage elements; a node that fits in a page is not split *)
Theorem C04_node_split_keeps_every_element : forall n ps p,
  exists pieces, split n ps p = Ok pieces /\ concat pieces = n_inodes n /\
    (n_inodes n <> [] -> Forall (fun q => q <> []) pieces) /\
    Forall (fun q => 2 <= length q)%nat (removelast pieces) /\
    (size n < ps -> pieces = [n_inodes n]).
Proof.
  intros n ps p. destruct (split_total n ps p) as [pieces H]. exists pieces.
  split; [exact H | split; [exact (split_concat n ps p pieces H) | split; [exact (split_nonempty n ps p pieces H) |
  split; [exact (split_nonlast_ge2 n ps p pieces H) | ]]]].
  intros Hs. rewrite (split_fits n ps p Hs) in H. injection H as <-. reflexivity.
Qed.
Print Assumptions C04_node_split_keeps_every_element.

(** the decision procedure the harness runs on the implementation's own split results means what it says *)
Theorem C04_split_ok_sound : forall l pieces, split_ok l pieces = true ->
  concat (map keys_of pieces) = keys_of l /\ (l <> [] -> Forall (fun q => q <> []) pieces) /\
  Forall (fun q => 2 <= length q)%nat (removelast pieces).
Proof. exact split_ok_sound. Qed.
Print Assumptions C04_split_ok_sound.

(** ---- the commit-time restructuring of a bucket's tree (Tree.v: node.rebalance + node.spill, predicts the real committed tree exactly) ---- *)
Import Tree TreeProofs.

(** Tx.Commit keeps the content of the bucket: whatever the page size, the fill percentage and the ORDER in which Go's map iteration
    lets Bucket.rebalance visit the materialised nodes, merging, removing emptied nodes, collapsing the root, splitting and creating new
    roots leave the in-order list of leaf elements (keys, values, flags) unchanged - and the result is again a height-balanced tree.
    (The balance hypothesis is needed: TreeProofs.merge_needs_balance merges a leaf with a branch sibling and changes the content.) *)
Theorem C04_commit_keeps_content_for_every_visit_order : forall ps fill fuel t order t' evs,
  aligned t -> commit_tree ps fill fuel t order = Ok (t', evs) -> flat t' = flat t /\ aligned t'.
Proof. exact commit_tree_flat. Qed.
Print Assumptions C04_commit_keeps_content_for_every_visit_order.

(** after the commit every vertex of the tree is a page again (no materialised node is left behind unwritten) *)
Theorem C04_commit_writes_every_dirty_node : forall ps fill fuel t order t' evs,
  closed false t -> commit_tree ps fill fuel t order = Ok (t', evs) -> allpg false t'.
Proof. exact commit_tree_pages. Qed.
Print Assumptions C04_commit_writes_every_dirty_node.

(** the same for the whole decision Bucket.spill takes for a child bucket (write it inline and free its pages, or spill it) *)
Theorem C04_bucket_commit_keeps_content : forall ps fill fuel t order t' evs inl,
  aligned t -> commit_bucket ps fill fuel t order = Ok (t', evs, inl) -> flat t' = flat t /\ aligned t'.
Proof. exact commit_bucket_flat. Qed.
Print Assumptions C04_bucket_commit_keeps_content.

(** a bucket WITH child buckets: writing the children's new values back (Cursor.seek + Cursor.node() + node.put) and committing keeps every
    key, and every element that is not the entry of a written-back child - for sorted content (the hypothesis is needed: on an unsorted
    leaf the linear lookup and node.put's bisection disagree, TreeNestedProofs.put_at_key_needs_sorted) *)
Import TreeNestedProofs.
Theorem C04_nested_commit_keeps_content : forall ps fill fuel t order children t' evs inl,
  aligned t -> isorted (flat t) ->
  commit_parent_bucket ps fill fuel t order children = Ok (t', evs, inl) ->
  map i_key (flat t') = map i_key (flat t) /\
  Forall2 (fun a b => i_key a = i_key b /\ (~ In (i_key a) (map fst children) -> a = b)) (flat t) (flat t') /\
  aligned t'.
Proof. exact commit_parent_bucket_flat. Qed.
Print Assumptions C04_nested_commit_keeps_content.

End NodeLayer.
