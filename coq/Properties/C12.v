(** C12 - the on-disk format stays the published version-2 format.
    Layout.v is the independent reader (it contains only the published layout); LayoutEnc.v states what a
    conforming writer produces.  The harness decodes every file the implementation writes with the extracted
    reader and compares with the API's report. *)
From Bbolt Require Import Base Consts Spec Fnv Layout LayoutEnc LayoutProofs LayoutPageProofs Node NodeProofs.
From Bbolt Require LayoutBucketProofs.

(** little-endian integers of any width round-trip at any file position *)
Theorem C12_integer_roundtrip : forall n v pre post, v < 256 ^ N.of_nat n ->
  le (rd_of (pre ++ enc_le n v ++ post)) n (N.of_nat (length pre)) = v.
Proof. exact le_enc_le. Qed.
Print Assumptions C12_integer_roundtrip.

(** a meta structure written per the published layout reads back field by field, with the writer's checksum *)
Theorem C12_meta_roundtrip : forall m pre post, meta_fields_ok m ->
  rd_meta_at (rd_of (pre ++ enc_meta m ++ post)) (N.of_nat (length pre)) = with_sum m.
Proof. exact meta_roundtrip. Qed.
Print Assumptions C12_meta_roundtrip.

(** ... and passes the reader's validation (magic, version, FNV-1a-64 over the first 56 bytes) *)
Theorem C12_written_meta_validates : forall m pre post, meta_fields_ok m ->
  m_magic m = magic -> m_version m = version ->
  validate_at (rd_of (pre ++ enc_meta m ++ post)) (N.of_nat (length pre)) = MOk.
Proof. exact meta_written_validates. Qed.
Print Assumptions C12_written_meta_validates.

Example C12_nonvacuous :
  let m := {| m_magic := magic; m_version := version; m_pagesize := 4096; m_flags := 0; m_root := 3; m_seq := 0;
              m_fl := 2; m_mark := 4; m_txid := 1; m_sum := 0 |} in
  validate_at (rd_of (List.repeat 0 16 ++ enc_meta m)) 16 = MOk.
Proof.
  intros m. rewrite <- (app_nil_r (enc_meta m)).
  apply (meta_written_validates m (repeat 0 16) []); repeat split.
Qed.

(** a free-list page written per the published layout - header, then the ids; with 65535 or more ids the count field is
    0xFFFF and the real count is the first u64 - reads back exactly, at any page position, for every length (both encodings) *)
Theorem C12_freelist_page_roundtrip : forall ps pg ov ids pre post,
  N.of_nat (length pre) = pg * ps -> (forall x, In x ids -> x < 2^64) -> N.of_nat (length ids) < 2^64 ->
  freelist_ids (rd_of (pre ++ enc_freelist_page pg ov ids ++ post)) ps pg = ids.
Proof. exact freelist_page_roundtrip. Qed.
Print Assumptions C12_freelist_page_roundtrip.

(** a leaf page written per the published layout (16-byte header; 16-byte elements flags/pos/ksize/vsize with pos relative to
    the element; keys and values behind them) decodes to exactly its key/value pairs, in order and within bounds *)
Theorem C12_leaf_page_roundtrip : forall ps fuel pg kvs pre post limit,
  (1 <= fuel)%nat -> pg < 2^64 -> N.of_nat (length kvs) < 65536 ->
  N.of_nat (length (enc_leaf_page pg kvs)) < 2^32 ->
  N.of_nat (length pre) + N.of_nat (length (enc_leaf_page pg kvs)) <= limit ->
  strictly_inc (map fst kvs) = true ->
  let rd := rd_of (pre ++ enc_leaf_page pg kvs ++ post) in
  let base := N.of_nat (length pre) in
  dec_page rd ps fuel base limit false None None
  = Some {| r_ents := map (fun kv => (fst kv, Val (snd kv))) kvs;
            r_pages := [(pg, 0, leaf_page_flag)]; r_order := true; r_bounds := true |}.
Proof. exact leaf_page_roundtrip. Qed.
Print Assumptions C12_leaf_page_roundtrip.

(** branch page elements (pos/ksize/pgid) read back as the separator keys and child ids that were written *)
Theorem C12_branch_elements_roundtrip : forall pg ov kcs pre post limit,
  pg < 2^64 -> ov < 2^32 -> N.of_nat (length kcs) < 65536 ->
  (forall kc, In kc kcs -> snd kc < 2^64) ->
  N.of_nat (length (enc_branch_page pg ov kcs)) < 2^32 ->
  N.of_nat (length pre) + N.of_nat (length (enc_branch_page pg ov kcs)) <= limit ->
  let rd := rd_of (pre ++ enc_branch_page pg ov kcs ++ post) in
  let base := N.of_nat (length pre) in
  u64 rd base = pg /\ u16 rd (base + 8) = branch_page_flag /\ u16 rd (base + 10) = N.of_nat (length kcs) /\
  u32 rd (base + 12) = ov /\
  let elems := branch_elems rd base (u16 rd (base + 10)) in
  map (fun x => let '(kp, ks, child) := x in (rbytes rd (N.to_nat ks) kp, child)) elems = kcs /\
  (base + 16 + 16 * u16 rd (base + 10) <=? limit) &&
    forallb (fun x => let '(kp, ks, child) := x in kp + ks <=? limit) elems = true.
Proof. exact branch_elems_roundtrip. Qed.
Print Assumptions C12_branch_elements_roundtrip.

(** ---- what the code's own page writer produces (Node.write: line-for-line model of node.write / WriteInodeToPage) ---- *)

(** a leaf node is written as exactly the published leaf page (the writer specification that leaf_page_roundtrip above reads back
    with the independent reader) *)
Theorem C12_node_write_is_published_leaf_page : forall n pg ov, n_leaf n = true -> Forall (fun x => i_flags x = 0) (n_inodes n) ->
  forall bytes, write n pg ov = Ok bytes ->
  bytes = enc_leaf_page_ov pg ov (map (fun x => (i_key x, i_val x)) (n_inodes n)).
Proof. exact write_leaf_is_spec. Qed.
Print Assumptions C12_node_write_is_published_leaf_page.

Theorem C12_node_write_is_published_branch_page : forall n pg ov, n_leaf n = false -> Forall (fun x => i_val x = []) (n_inodes n) ->
  forall bytes, write n pg ov = Ok bytes ->
  bytes = enc_branch_page pg ov (map (fun x => (i_key x, i_pgid x)) (n_inodes n)).
Proof. exact write_branch_is_spec. Qed.
Print Assumptions C12_node_write_is_published_branch_page.

(** the page holds exactly node.size() bytes, and node.write refuses exactly: 65535 or more elements, an empty key, a branch element
    pointing at the page itself *)
Theorem C12_node_write_length : forall n pg ov bytes, write n pg ov = Ok bytes -> N.of_nat (length bytes) = size n.
Proof. exact write_length. Qed.
Print Assumptions C12_node_write_length.

(** write then read (node.read / ReadInodeFromPage, at any position in a file) gives the node back - for pages below 4 GiB ... *)
Theorem C12_node_write_read_roundtrip : forall n pg ov pre post bytes,
  node_wf n -> pg < 2^64 -> ov < 2^32 -> N.of_nat (length (n_inodes n)) < 65535 -> size n < 2^32 ->
  write n pg ov = Ok bytes ->
  read (rd_of (pre ++ bytes ++ post)) (N.of_nat (length pre)) = Ok {| n_leaf := n_leaf n; n_unbal := false; n_inodes := n_inodes n |}.
Proof. exact write_read_roundtrip. Qed.
Print Assumptions C12_node_write_read_roundtrip.

(** ... and the size bound is needed: the element header stores the distance to the key as a uint32, so a page of 4 GiB or more
    (a value of 2^32-1 bytes in front of another element) does not read back although every field is in range.  Unreachable through
    the API (MaxValueSize = 2^31-2 and MaxKeySize bound a single element below that), so not a defect. *)
Theorem C12_roundtrip_needs_the_size_bound :
  exists n pg ov bytes,
    (Forall (fun x => 0 < len (i_key x) < 2^32 /\ len (i_val x) < 2^32 /\ i_flags x < 2^32 /\ i_pgid x < 2^64) (n_inodes n) /\
     n_leaf n = true /\ Forall (fun x => i_pgid x = 0) (n_inodes n)) /\
    pg < 2^64 /\ ov < 2^32 /\ N.of_nat (length (n_inodes n)) < 65535 /\
    write n pg ov = Ok bytes /\
    read (rd_of ([] ++ bytes ++ [])) (N.of_nat (length (@nil N))) <> Ok {| n_leaf := n_leaf n; n_unbal := false; n_inodes := n_inodes n |}.
Proof. exact roundtrip_needs_size_bound. Qed.
Print Assumptions C12_roundtrip_needs_the_size_bound.

(** ---- nested buckets: the independent reader decodes what the code's writer stores for them ---- *)
Module Buckets.
Import LayoutBucketProofs.

(** a leaf written by node.write whose elements carry any even flags reads back as plain key/value pairs *)
Theorem C12_leaf_with_flags_roundtrip : forall ps f n pg ov img pre post limit inline lo hi,
  n_leaf n = true ->
  Forall (fun x => i_flags x < 2^32 /\ N.odd (i_flags x) = false) (n_inodes n) ->
  pg < 2^64 -> ov < 2^32 -> size n < 2^32 ->
  write n pg ov = Ok img ->
  N.of_nat (length pre) + size n <= limit ->
  dec_page (rd_of (pre ++ img ++ post)) ps (S f) (N.of_nat (length pre)) limit inline lo hi =
  Some {| r_ents := map (fun x => (i_key x, Val (i_val x))) (n_inodes n);
          r_pages := if inline then [] else [(pg, ov, leaf_page_flag)];
          r_order := key_order lo hi (keys_of (n_inodes n)); r_bounds := true |}.
Proof. exact leaf_flags_roundtrip. Qed.
Print Assumptions C12_leaf_with_flags_roundtrip.

(** an INLINE bucket: the value Bucket.write stores (16-byte header + the root leaf as a page with id 0) inside a leaf written by
    node.write is decoded by the independent reader to the nested bucket with its sequence and its keys, and occupies no page *)
Theorem C12_inline_bucket_roundtrip : forall ps f n pg ov img pre post limit inline lo hi l1 x l2 seq m,
  n_leaf n = true -> n_inodes n = l1 ++ [x] ++ l2 -> plain_flags l1 -> plain_flags l2 ->
  i_flags x < 2^32 -> N.odd (i_flags x) = true ->
  seq < 2^64 -> n_leaf m = true -> plain_flags (n_inodes m) -> bucket_write seq m = Ok (i_val x) ->
  pg < 2^64 -> ov < 2^32 -> size n < 2^32 -> write n pg ov = Ok img -> N.of_nat (length pre) + size n <= limit ->
  dec_page (rd_of (pre ++ img ++ post)) ps (S (S f)) (N.of_nat (length pre)) limit inline lo hi =
  Some {| r_ents := plain_ents l1 ++ [(i_key x, Sub seq (plain_ents (n_inodes m)))] ++ plain_ents l2;
          r_pages := if inline then [] else [(pg, ov, leaf_page_flag)];
          r_order := key_order lo hi (keys_of (n_inodes n)) && key_order None None (keys_of (n_inodes m));
          r_bounds := true |}.
Proof. exact inline_bucket_roundtrip. Qed.
Print Assumptions C12_inline_bucket_roundtrip.
End Buckets.
